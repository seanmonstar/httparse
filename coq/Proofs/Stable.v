(* Proofs/Stable.v -- the reference parsers are stable under appending bytes: a stage that
   succeeded or failed on l gives the same answer (with the appended bytes left over) on
   l ++ ext.  This is C02 for the reference; Thm/C02.v transports it to the model. *)
From Coq Require Import List NArith PeanoNat Lia Bool.
From HV Require Import Cursor Model Api Spec.
From HV.Proofs Require Import Base RefInd RefFacts.
Import ListNotations.

Definition extends {A} (ext : list N) (r r' : rres A) : Prop :=
  match r with
  | ROk a o l => r' = ROk a o (l ++ ext)
  | RErr e => r' = RErr e
  | RPart => True
  end.

Lemma span_all_ext p l ext' : snd (span p l) = [] -> fst (span p (l ++ ext')) = l ++ fst (span p ext').
Proof.
  intros H. rewrite span_append. destruct (span_viewP p l) as [|_ _]; [discriminate|].
  destruct (span p ext'). reflexivity.
Qed.

Section Stab.
Variable ext : list N.

Lemma extends_rbind {A B} (r r' : rres A) (g : A -> nat -> list N -> rres B) :
  extends ext r r' ->
  (forall a o l, extends ext (g a o l) (g a o (l ++ ext))) ->
  extends ext (rbind r g) (rbind r' g).
Proof.
  intros H Hg. destruct r as [a o l| |e]; cbn [extends rbind] in *; subst; cbn [rbind]; auto.
Qed.

Lemma ref_eol_stable e off l : extends ext (ref_eol e off l) (ref_eol e off (l ++ ext)).
Proof. rewrite !ref_eol_eq. apply on_eol_stable; [intros; exact I|..]; intros; reflexivity. Qed.

Lemma ref_empty_lines_stable l : forall off, extends ext (ref_empty_lines off l) (ref_empty_lines off (l ++ ext)).
Proof.
  intros off. revert off l.
  apply (ref_empty_lines_ind (fun off l x => extends ext x (ref_empty_lines off (l ++ ext)))).
  - intros; exact I.
  - intros off b2 r2 H10. exact (rel_err off b2 (r2 ++ ext) H10).
  - intros off e r x He IH. rewrite <- app_assoc, rel_eol by exact He. exact IH.
  - intros off b r H13 H10. exact (rel_stop off b (r ++ ext) H13 H10).
Qed.

Lemma ref_spaces_stable on off l : extends ext (ref_spaces on off l) (ref_spaces on off (l ++ ext)).
Proof.
  unfold ref_spaces. destruct on; [|reflexivity].
  destruct (span_viewP (is 32) l) as [s b r' Hs|_ _]; [rewrite Hs; reflexivity|exact I].
Qed.

Lemma ref_method_stable off l : extends ext (ref_method off l) (ref_method off (l ++ ext)).
Proof.
  unfold ref_method. destruct (span_viewP tchar l) as [m b r' Hs|_ _]; [rewrite Hs|exact I].
  destruct (null m); [reflexivity|]. destruct (is 32 b); reflexivity.
Qed.

Lemma ref_target_stable off l : extends ext (ref_target off l) (ref_target off (l ++ ext)).
Proof.
  unfold ref_target. destruct (span_viewP uri_char l) as [m b r' Hs|_ _]; [rewrite Hs|exact I].
  destruct (negb (is 32 b)); [reflexivity|].
  destruct (null m); [reflexivity|]. destruct (negb (utf8_valid m)); reflexivity.
Qed.

Lemma mismatch_app : forall l lit x y, length l <= length lit -> is_prefix l lit = false ->
  is_prefix (l ++ x) lit = false /\ list_eqb (l ++ x) (lit ++ y) = false.
Proof.
  induction l as [|a l IH]; intros lit x y Hl Hp; [discriminate|].
  destruct lit as [|c lit]; [cbn [length] in Hl; lia|].
  cbn [is_prefix app list_eqb length] in *. destruct (N.eqb a c); cbn [andb] in *; [|split; reflexivity].
  apply IH; [lia|exact Hp].
Qed.

Lemma ref_version_stable off l : extends ext (ref_version off l) (ref_version off (l ++ ext)).
Proof.
  unfold ref_version. rewrite !take_spec.
  destruct (Nat.leb_spec 8 (length l)) as [H8|H8].
  - rewrite app_length. destruct (Nat.leb_spec 8 (length l + length ext)); [|lia].
    rewrite firstn_app, skipn_app. replace (8 - length l) with 0 by lia.
    change (firstn 0 ext) with (@nil N). change (skipn 0 ext) with ext. rewrite app_nil_r.
    destruct (list_eqb (firstn 8 l) (HTTP1dot ++ [48%N])); [reflexivity|].
    destruct (list_eqb (firstn 8 l) (HTTP1dot ++ [49%N])); reflexivity.
  - destruct (is_prefix l HTTP1dot) eqn:Ep; [exact I|]. cbn [extends].
    assert (Hl : length l <= length HTTP1dot) by (cbn [length HTTP1dot]; lia).
    destruct (Nat.leb_spec 8 (length (l ++ ext))).
    + rewrite firstn_app, firstn_all2 by lia.
      rewrite !(proj2 (mismatch_app _ _ _ _ Hl Ep)). reflexivity.
    + rewrite (proj1 (mismatch_app _ _ _ [] Hl Ep)). reflexivity.
Qed.

Lemma ref_sp_stable e off l : extends ext (ref_sp e off l) (ref_sp e off (l ++ ext)).
Proof. unfold ref_sp. destruct l as [|b r]; [exact I|]. cbn [app]. destruct (is 32 b); reflexivity. Qed.
Lemma ref_code_stable off l : extends ext (ref_code off l) (ref_code off (l ++ ext)).
Proof.
  unfold ref_code. destruct l as [|a r1]; [exact I|]. cbn [app]. destruct (negb (digit a)); [reflexivity|].
  destruct r1 as [|b r2]; [exact I|]. cbn [app]. destruct (negb (digit b)); [reflexivity|].
  destruct r2 as [|c r3]; [exact I|]. cbn [app]. destruct (negb (digit c)); reflexivity.
Qed.

Lemma ref_reason_stable off l : extends ext (ref_reason off l) (ref_reason off (l ++ ext)).
Proof.
  unfold ref_reason. destruct (span_viewP reason_char l) as [t b r' Hs|_ _]; [rewrite Hs|exact I].
  apply (extends_rbind (ref_eol Status _ (b :: r'))); [apply ref_eol_stable|intros; reflexivity].
Qed.

Lemma ref_after_code_stable ms off l : extends ext (ref_after_code ms off l) (ref_after_code ms off (l ++ ext)).
Proof.
  unfold ref_after_code. destruct l as [|b r]; [exact I|]. cbn [app].
  destruct (is 32 b); [apply extends_rbind; [apply ref_spaces_stable|intros; apply ref_reason_stable]|].
  destruct (is 13 b || is 10 b); [|reflexivity].
  apply (extends_rbind (ref_eol Status off (b :: r))); [apply ref_eol_stable|intros; reflexivity].
Qed.

Variable hc : hcfg.

Lemma ref_invalid_stable ign e off l : extends ext (ref_invalid ign e off l) (ref_invalid ign e off (l ++ ext)).
Proof.
  destruct ign; [|reflexivity]. rewrite !ref_invalid_eq.
  destruct (span_viewP junk_byte l) as [junk b r1 Hs|_ _]; [rewrite Hs|exact I].
  apply (on_eol_stable ext _ _ (b :: r1)).
  - intros. exact I.
  - reflexivity.
  - intros. reflexivity.
  - intros. reflexivity.
Qed.

Lemma vinvalid_stable off l : extends ext (vinvalid hc off l) (vinvalid hc off (l ++ ext)).
Proof. apply extends_rbind; [apply ref_invalid_stable|intros; reflexivity]. Qed.

Lemma vstop_app r : vstop hc r -> vstop hc (r ++ ext).
Proof.
  intros [H|(b & r' & -> & Hw)]; [left; exact H|].
  right. exists b, (r' ++ ext). split; [reflexivity|exact Hw].
Qed.

(* The first run is taken apart by the induction principle; the run on l ++ ext is then moved one
   step by the equation of the same case. *)
Lemma ref_value_lines_stable voff racc off l :
  extends ext (ref_value_lines hc voff racc off l) (ref_value_lines hc voff racc off (l ++ ext)).
Proof.
  apply (ref_value_lines_ind hc voff
           (fun racc off l x => extends ext x (ref_value_lines hc voff racc off (l ++ ext)))).
  - intros; exact I.
  - intros ? ? b2 r2 H10. exact (rvl_err hc _ _ _ b2 (r2 ++ ext) H10).
  - intros ? ? ? ? ? Hv IH. cbn [app]. rewrite rvl_char by exact Hv. exact IH.
  - intros ? ? ? ? He Hs. rewrite <- app_assoc. apply rvl_stop; [exact He|apply vstop_app, Hs].
  - intros ? ? ? ? ? ? He Hf Hw IH. rewrite <- app_assoc. cbn [app]. rewrite rvl_fold by assumption. exact IH.
  - (* dropped line *)
    intros ? ? b r Hv H13 H10. change ((b :: r) ++ ext) with (b :: r ++ ext).
    rewrite rvl_bad by assumption. apply (vinvalid_stable _ (b :: r)).
Qed.

Lemma ref_value_start_stable off l :
  extends ext (ref_value_start hc off l) (ref_value_start hc off (l ++ ext)).
Proof.
  apply (ref_value_start_ind hc (fun off l x => extends ext x (ref_value_start hc off (l ++ ext)))).
  - intros; exact I.
  - intros ? b2 r2 H10. exact (rvs_err hc _ b2 (r2 ++ ext) H10).
  - intros ? ? ? ? Hw IH. cbn [app]. rewrite rvs_ws by exact Hw. exact IH.
  - (* value begins *)
    intros ? b r Hv Hw. change ((b :: r) ++ ext) with (b :: r ++ ext).
    rewrite rvs_value by assumption. apply (ref_value_lines_stable _ _ _ (b :: r)).
  - intros ? ? ? He Hs. rewrite <- app_assoc. apply rvs_stop; [exact He|apply vstop_app, Hs].
  - intros ? ? ? ? ? He Hf Hw IH. rewrite <- app_assoc. cbn [app]. rewrite rvs_fold by assumption. exact IH.
  - (* dropped line *)
    intros ? b r Hv H13 H10. change ((b :: r) ++ ext) with (b :: r ++ ext).
    rewrite rvs_bad by assumption. apply (vinvalid_stable _ (b :: r)).
Qed.

Lemma ref_value_stable name off l : extends ext (ref_value hc name off l) (ref_value hc name off (l ++ ext)).
Proof. apply extends_rbind; [apply ref_value_start_stable|intros; reflexivity]. Qed.

(* a header line: as `extends`, except that a stripped run of leading whitespace that reaches the
   end of the buffer may grow (the block loop then answers Partial, so nothing is lost) *)
Definition extends_l (r r' : rres rline) : Prop :=
  match r with
  | ROk a o l' => (a = LSkip /\ l' = [] /\
                   (match ext with c :: _ => ws c = false | [] => True end -> r' = ROk a o ext))
                  \/ r' = ROk a o (l' ++ ext)
  | RErr e => r' = RErr e
  | RPart => True
  end.
Lemma extends_to_l r r' : extends ext r r' -> extends_l r r'.
Proof. destruct r; cbn [extends extends_l]; auto. Qed.

Lemma ref_header_line_stable first off l :
  extends_l (ref_header_line hc first off l) (ref_header_line hc first off (l ++ ext)).
Proof.
  rewrite !ref_header_line_eq.
  apply on_eol_stable; [intros; exact I|reflexivity|intros; right; reflexivity|intros _].
  destruct l as [|b r]; [exact I|]. cbn [app].
  destruct (negb (tchar b)).
  { destruct (allow_space_before_first_header_name hc && first && ws b);
      [|apply extends_to_l, (ref_invalid_stable _ _ _ (b :: r))].
    change (b :: r ++ ext) with ((b :: r) ++ ext). rewrite span_append.
    destruct (span ws (b :: r)) as [w [|c r']]; [left|right; reflexivity].
    split; [reflexivity|]. split; [reflexivity|]. intros He.
    destruct ext as [|c e]; cbn [span]; [|rewrite He]; rewrite app_nil_r; reflexivity. }
  change (b :: r ++ ext) with ((b :: r) ++ ext).
  destruct (span_viewP tchar (b :: r)) as [name c r2 Hs|_ _];
    [rewrite Hs|destruct (allow_spaces_after_header_name hc); exact I].
  destruct (if allow_spaces_after_header_name hc then span ws (c :: r2) else ([], c :: r2)) as [w r3] eqn:Ew.
  destruct r3 as [|c' r4]; [exact I|].
  change (c :: r2 ++ ext) with ((c :: r2) ++ ext). rewrite (opt_span_ext _ _ _ _ _ _ _ Ew).
  destruct (is 58 c'); apply extends_to_l;
    [apply ref_value_stable|apply (ref_invalid_stable _ _ _ (c' :: r4))].
Qed.

Definition final (st : status) : Prop := match st with Complete _ | Error _ => True | _ => False end.

(* The two runs have different fuel, so this goes by induction on the first run's. *)
Lemma ref_header_block_stable cap : forall f f' hs off l st hs',
  ref_header_block hc f cap hs off l = (st, hs') -> final st -> length (l ++ ext) < f' ->
  ref_header_block hc f' cap hs off (l ++ ext) = (st, hs').
Proof.
  induction f as [|f IH]; intros f' hs off l st hs' H Hfin Hf'.
  { injection H as <- _. destruct Hfin. }
  destruct f' as [|f']; [lia|]. rewrite ref_header_block_S in H |- *.
  pose proof (ref_header_line_stable (null hs) off l) as Hs.
  pose proof (ref_header_line_adv hc (null hs) off l) as Hadv.
  destruct (ref_header_line hc (null hs) off l) as [x o r| |e]; cbn [extends_l] in Hs.
  - destruct Hs as [(-> & -> & _)| ->].
    + (* the stripped whitespace reached the end of the buffer: the block is Partial there *)
      destruct f; injection H as <- _; destruct Hfin.
    + destruct Hadv as [k (Hk0 & Hk & _ & ->)].
      assert (Hr : length (skipn k l ++ ext) < f').
      { rewrite app_length, skipn_length. rewrite app_length in Hf'. lia. }
      destruct x as [| |n v]; cbn [block_step] in H |- *; [exact H|eapply IH; eassumption|].
      destruct (Nat.ltb (length hs) cap); [eapply IH; eassumption|exact H].
  - injection H as <- _. destruct Hfin.
  - rewrite Hs. exact H.
Qed.

Theorem ref_headers_stable : forall cap off l st hs,
  ref_headers hc cap off l = (st, hs) -> final st -> ref_headers hc cap off (l ++ ext) = (st, hs).
Proof.
  intros cap off l st hs H Hfin. eapply ref_header_block_stable; [exact H|exact Hfin|lia].
Qed.
End Stab.

Definition le_opt {A} (a b : option A) : Prop := a = None \/ a = b.

Section Top.
Variable ext : list N.

Lemma val_ext {A} (r r' : rres A) : extends ext r r' -> le_opt (val r) (val r').
Proof. destruct r; cbn [extends]; [intros ->; right|left|left]; reflexivity. Qed.
Lemma val_same {A} (r r' : rres A) : extends ext r r' -> r <> RPart -> val r' = val r.
Proof. destruct r; cbn [extends]; [intros ->|contradiction|intros ->]; reflexivity. Qed.
Lemma rbind_not_part {A B} (r : rres A) (g : A -> nat -> list N -> rres B) : rbind r g <> RPart -> r <> RPart.
Proof. intros H ->. apply H. reflexivity. Qed.

Lemma chain3_stable {A B C S} (mk : option A -> option B -> option C -> S) r1 r1' g2 g3 g4 :
  extends ext r1 r1' ->
  (forall a o l, extends ext (g2 a o l) (g2 a o (l ++ ext))) ->
  (forall a o l, extends ext (g3 a o l) (g3 a o (l ++ ext))) ->
  (forall a o l, extends ext (g4 a o l) (g4 a o (l ++ ext))) ->
  let x := chain3 mk r1 g2 g3 g4 in let x' := chain3 mk r1' g2 g3 g4 in
  extends ext (snd x) (snd x') /\ (snd x <> RPart -> fst x' = fst x) /\
  le_opt (val r1) (val r1') /\ le_opt (val (rbind r1 g2)) (val (rbind r1' g2)) /\
  le_opt (val (rbind (rbind r1 g2) g3)) (val (rbind (rbind r1' g2) g3)).
Proof.
  intros E1 H2 H3 H4. cbn zeta. unfold chain3. cbn [fst snd].
  pose proof (extends_rbind ext _ _ g2 E1 H2) as E2.
  pose proof (extends_rbind ext _ _ g3 E2 H3) as E3.
  split; [apply extends_rbind; assumption|]. split.
  - intros N4. apply rbind_not_part in N4 as N3. apply rbind_not_part in N3 as N2.
    apply rbind_not_part in N2 as N1.
    rewrite (val_same _ _ E1 N1), (val_same _ _ E2 N2), (val_same _ _ E3 N3). reflexivity.
  - split; [|split]; apply val_ext; assumption.
Qed.

Lemma ref_request_line_stable ms buf :
  let x := ref_request_line ms buf in let x' := ref_request_line ms (buf ++ ext) in
  extends ext (snd x) (snd x') /\ (snd x <> RPart -> fst x' = fst x) /\
  le_opt (rs_method (fst x)) (rs_method (fst x')) /\ le_opt (rs_path (fst x)) (rs_path (fst x')) /\
  le_opt (rs_version (fst x)) (rs_version (fst x')).
Proof.
  rewrite !ref_request_line_chain. apply chain3_stable.
  - apply extends_rbind; [apply ref_empty_lines_stable|intros; apply ref_method_stable].
  - intros. apply extends_rbind; [apply ref_spaces_stable|intros; apply ref_target_stable].
  - intros. apply extends_rbind; [apply ref_spaces_stable|intros; apply ref_version_stable].
  - intros. apply ref_eol_stable.
Qed.

Lemma ref_status_line_stable ms buf :
  let x := ref_status_line ms buf in let x' := ref_status_line ms (buf ++ ext) in
  extends ext (snd x) (snd x') /\ (snd x <> RPart -> fst x' = fst x) /\
  le_opt (rs_pversion (fst x)) (rs_pversion (fst x')) /\ le_opt (rs_code (fst x)) (rs_code (fst x')) /\
  le_opt (rs_reason (fst x)) (rs_reason (fst x')).
Proof.
  rewrite !ref_status_line_chain. apply chain3_stable.
  - apply extends_rbind; [apply ref_empty_lines_stable|intros; apply ref_version_stable].
  - intros. apply extends_rbind; [|intros; apply ref_code_stable].
    apply extends_rbind; [apply ref_sp_stable|intros; apply ref_spaces_stable].
  - intros. apply ref_after_code_stable.
  - intros. reflexivity.
Qed.

Lemma tail_stable hc cap (x x' : rres unit) : extends ext x x' -> final (fst (ref_tail x hc cap)) ->
  ref_tail x' hc cap = ref_tail x hc cap /\ x <> RPart.
Proof.
  destruct x as [u o l| |e]; cbn [extends ref_tail fst].
  - intros -> Hfin. split; [|discriminate]. destruct (ref_headers hc cap o l) as [s hs] eqn:Eh.
    exact (ref_headers_stable ext hc _ _ _ _ _ Eh Hfin).
  - intros _ [].
  - intros -> _. split; [reflexivity|discriminate].
Qed.

Theorem ref_request_stable cf cap buf :
  final (rq_status (ref_request cf cap buf)) ->
  ref_request cf cap (buf ++ ext) = ref_request cf cap buf.
Proof.
  rewrite !ref_request_tail. cbn [rq_status]. intros Hfin.
  destruct (ref_request_line_stable (allow_multiple_spaces_in_request_line_delimiters cf) buf) as (He & Hst & _).
  destruct (tail_stable _ cap _ _ He Hfin) as [-> Hn]. rewrite (Hst Hn). reflexivity.
Qed.

Theorem ref_response_stable cf cap buf :
  final (rp_status (ref_response cf cap buf)) ->
  ref_response cf cap (buf ++ ext) = ref_response cf cap buf.
Proof.
  rewrite !ref_response_tail. cbn [rp_status]. intros Hfin.
  destruct (ref_status_line_stable (allow_multiple_spaces_in_response_status_delimiters cf) buf) as (He & Hst & _).
  destruct (tail_stable _ cap _ _ He Hfin) as [-> Hn]. rewrite (Hst Hn). reflexivity.
Qed.

(* fields already reported with a Partial keep their value *)
Theorem ref_request_fields_final cf cap buf :
  let a := rq_start (ref_request cf cap buf) in let b := rq_start (ref_request cf cap (buf ++ ext)) in
  le_opt (rs_method a) (rs_method b) /\ le_opt (rs_path a) (rs_path b) /\ le_opt (rs_version a) (rs_version b).
Proof. cbn zeta. rewrite !ref_request_tail. apply ref_request_line_stable. Qed.

Theorem ref_response_fields_final cf cap buf :
  let a := rp_start (ref_response cf cap buf) in let b := rp_start (ref_response cf cap (buf ++ ext)) in
  le_opt (rs_pversion a) (rs_pversion b) /\ le_opt (rs_code a) (rs_code b) /\ le_opt (rs_reason a) (rs_reason b).
Proof. cbn zeta. rewrite !ref_response_tail. apply ref_status_line_stable. Qed.
End Top.
