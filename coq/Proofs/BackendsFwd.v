(* BackendsFwd.v -- every concrete backend (SWAR any width, SSE4.2, AVX2, NEON, runtime id) only moves
   the cursor forward, whatever its kernels compute: env_fwd (env_of W be). *)
From Coq Require Import List NArith Bool.
From HV Require Import Cursor Scan Intrinsics Model Backends.
From HV.Generated Require Import Classes Swar Sse42 Avx2 Neon Cfg.
From HV.Proofs Require Import Mono.
Import ListNotations.

Lemma mk_fwd u v n :
  (forall f, mono (u f)) -> (forall f, mono (v f)) -> (forall f, mono (n f)) -> env_fwd (mk u v n).
Proof. intros Hu Hv Hn. exact (conj Hu (conj Hv Hn)). Qed.

Section Width.
Variable W : nat.

Lemma fwd_swar_uri f : mono (swar_uri W f).   Proof. apply mono_swar_loop. Qed.
Lemma fwd_swar_value f : mono (swar_value W f). Proof. apply mono_swar_loop. Qed.
Lemma fwd_swar_name f : mono (swar_name W f).  Proof. apply mono_swar_name_loop. Qed.

(* every vectored scanner unfolds to a simd_loop that falls back to the SWAR one *)
#[local] Hint Resolve fwd_swar_uri fwd_swar_value fwd_swar_name : mono.
#[local] Hint Extern 1 (mono _) => apply mono_simd_loop : mono.

Lemma env_swar_fwd : env_fwd (env_swar W).
Proof. apply mk_fwd; auto with mono. Qed.
Lemma env_sse42_fwd : env_fwd (env_sse42 W).
Proof. apply mk_fwd; auto with mono. Qed.
Lemma env_avx2_fwd : env_fwd (env_avx2 W).
Proof. apply mk_fwd; auto with mono. Qed.
Lemma env_neon_fwd : env_fwd (env_neon W).
Proof. apply mk_fwd; auto with mono. Qed.
Lemma env_runtime_fwd id : env_fwd (env_runtime W id).
Proof.
  unfold env_runtime. destruct (N.eqb id RT_AVX2); [apply env_avx2_fwd|].
  destruct (N.eqb id RT_SSE42); [apply env_sse42_fwd|apply env_swar_fwd].
Qed.
End Width.

Theorem backends_fwd : forall W be, env_fwd (env_of W be).
Proof.
  intros W [| | | |id]; cbn [env_of];
    [apply env_swar_fwd|apply env_sse42_fwd|apply env_avx2_fwd|apply env_neon_fwd|apply env_runtime_fwd].
Qed.
