(* Proofs/Refine.v -- the public entry points of the model (Api.v) equal the reference
   parsers (Spec.v), for every environment satisfying EnvOk: request, response, header
   block; the array after the call is the headers the reference keeps, in order. *)
From Coq Require Import List NArith ZArith Lia Bool ZifyBool ZifyN ZifyNat.
From HV Require Import Cursor Scan Model Api Spec.
From HV.Proofs Require Import Base RefInd EnvOk StartLine Headers RefFacts.
Import ListNotations.

Definition slots_of (hs : list (sl * sl)) (arr : list slot) : list slot :=
  map (fun h => SWritten (fst h) (snd h)) hs ++ skipn (length hs) arr.

Lemma slots_of_nil arr : slots_of [] arr = arr.
Proof. reflexivity. Qed.

Lemma slots_of_length hs arr : length hs <= length arr -> length (slots_of hs arr) = length arr.
Proof. intros H. unfold slots_of. rewrite app_length, map_length, skipn_length. lia. Qed.

Lemma write_slot_app : forall a b s,
  write_slot (length a) s (a ++ b) = match b with [] => None | _ :: b' => Some (a ++ s :: b') end.
Proof.
  induction a as [|x a IH]; intros b s.
  - destruct b; reflexivity.
  - cbn [length app write_slot]. rewrite IH. destruct b; reflexivity.
Qed.

Lemma write_slot_slots_of hs arr n v :
  write_slot (length hs) (SWritten n v) (slots_of hs arr) =
  if Nat.ltb (length hs) (length arr) then Some (slots_of (hs ++ [(n, v)]) arr) else None.
Proof.
  unfold slots_of.
  rewrite <- (map_length (fun h : sl * sl => SWritten (fst h) (snd h)) hs) at 1. rewrite write_slot_app.
  destruct (Nat.ltb_spec (length hs) (length arr)) as [H|H].
  - pose proof (skipn_length (length hs) arr) as Hl.
    assert (Hr : skipn 1 (skipn (length hs) arr) = skipn (length (hs ++ [(n, v)])) arr)
      by (rewrite skipn_add, app_length; reflexivity).
    destruct (skipn (length hs) arr) as [|x r]; [cbn [length] in Hl; lia|].
    rewrite map_app, <- app_assoc, <- Hr. reflexivity.
  - rewrite skipn_all2 by lia. reflexivity.
Qed.

Definition shift_status (start : nat) (st : status) : status :=
  match st with Complete o => Complete (o - start) | x => x end.

Lemma firstn_slots_of hs arr :
  firstn (length hs) (slots_of hs arr) = map (fun h => SWritten (fst h) (snd h)) hs.
Proof.
  unfold slots_of.
  replace (length hs) with (length (map (fun h : sl * sl => SWritten (fst h) (snd h)) hs) + 0)
    by (rewrite map_length; lia).
  rewrite firstn_app_2. cbn [firstn]. apply app_nil_r.
Qed.

Definition pick {A} (new old : option A) : option A :=
  match new with Some x => Some x | None => old end.

Definition written_of (hs : list (sl * sl)) : list slot := map (fun h => SWritten (fst h) (snd h)) hs.

Definition req_result (rq : request) (arr : list slot) (r : ref_req) : status * request * list slot :=
  let st := rq_start r in
  (rq_status r,
   mkreq (pick (rs_method st) (q_method rq)) (pick (rs_path st) (q_path rq))
         (pick (rs_version st) (q_version rq))
         (match rq_status r with Complete _ => written_of (rq_headers r) | _ => q_hdrs rq end),
   slots_of (rq_headers r) arr).

Definition resp_result (rp : response) (arr : list slot) (r : ref_resp) : status * response * list slot :=
  let st := rp_start r in
  (rp_status r,
   mkresp (pick (rs_pversion st) (p_version rp)) (pick (rs_code st) (p_code rp))
          (pick (rs_reason st) (p_reason rp))
          (match rp_status r with Complete _ => written_of (rp_headers r) | _ => p_hdrs rp end),
   slots_of (rp_headers r) arr).

(* A stage of a parser reads from the cursor and either stops the call or moves on.  Its reference
   counterpart takes the absolute offset and the unread input.  `stage_ok` says the two do the same;
   what else it carries is what the next stage needs to start from: whether the token is committed
   (flags `n` before, `cm` after) and that the input left is still within the fuel (`in_fuel`). *)
Definition stage_rel {A} (cm : bool) (f : nat) (a : A) (c : cur) (b : A) : Prop :=
  a = b /\ (cm = true -> tokrev c = []) /\ in_fuel f (rest c).

Definition stage_ok {A} (n cm : bool) (f : nat) (m : P A) (rf : nat -> list N -> rres A) : Prop :=
  forall c, (n = true -> tokrev c = []) -> in_fuel f (rest c) ->
  sim (stage_rel cm f) (m c) (rf (apos c) (rest c)).

Lemma stage_ok_bind {A B n c1 c2 f} {m : P A} {k : A -> P B} {rm rk} :
  stage_ok n c1 f m rm -> (forall a, stage_ok c1 c2 f (k a) (rk a)) ->
  stage_ok n c2 f (bind m k) (fun o l => rbind (rm o l) rk).
Proof.
  intros Hm Hk c Hn Hg. apply (sim_bind (Hm c Hn Hg)).
  intros a c' b (-> & Ht & Hg'). apply Hk; assumption.
Qed.

(* slice() returns nothing the stages use: it only commits *)
Lemma stage_slice {A} n cm f (m : P A) rf : stage_ok true cm f m rf -> stage_ok n cm f (slice ;;; m) rf.
Proof. intros H c _ Hg. exact (H (commit c) (fun _ => eq_refl) Hg). Qed.

(* the stages of StartLine.v in this form: the reference consumes a prefix of its input, so what
   is left is within the fuel again *)
Lemma sim_stage {A} (R : A -> cur -> A -> Prop) cm f (o : out A) off l r :
  (forall a c b, R a c b -> a = b /\ (cm = true -> tokrev c = [])) ->
  sim R o r -> advances0 off l r -> in_fuel f l -> sim (stage_rel cm f) o r.
Proof.
  intros HR H Hadv Hg. destruct r as [b o' l'| |e]; cbn [sim advances0] in *; auto.
  destruct H as (a & c & -> & Ho & Hl & Ha). destruct Hadv as (k & _ & _ & ->).
  apply HR in Ha as [-> Ht]. apply sim_done; [|exact Ho|exact Hl].
  split; [reflexivity|]. split; [exact Ht|]. rewrite Hl. apply in_fuel_skipn, Hg.
Qed.
Lemma agree_stage_sim {A} cm f (o : out A) off l r :
  agree o r -> advances0 off l r -> in_fuel f l -> sim (stage_rel cm f) o r.
Proof.
  intros H. apply (sim_stage (committed eq)); [|apply agree_sim, H].
  intros a c b [Hab Ht]. split; [exact Hab|intros _; exact Ht].
Qed.
Lemma agree_stage {A} (n cm : bool) f (m : P A) rf :
  (forall p t l, (n = true -> t = []) -> in_fuel f l -> agree (m (mkcur p t l)) (rf (length t + p) l)) ->
  (forall off l, advances0 off l (rf off l)) -> stage_ok n cm f m rf.
Proof. intros H Hadv [p t l] Hn Hg. exact (agree_stage_sim cm f _ _ _ _ (H p t l Hn Hg) (Hadv _ _) Hg). Qed.
Lemma agree_nc_stage {A} n f (m : P A) rf :
  (forall c, agree_nc (m c) (rf (apos c) (rest c))) ->
  (forall off l, advances0 off l (rf off l)) -> stage_ok n false f m rf.
Proof.
  intros H Hadv c _ Hg. apply (sim_stage (fun a _ b => a = b) false f _ (apos c) (rest c)); [|apply agree_nc_sim, H|apply Hadv|exact Hg].
  intros a c' b Hab. split; [exact Hab|discriminate].
Qed.

Section WithEnv.
Variable E : env.
Hypothesis HE : env_ok E.
Variable fuel : nat.

Lemma empty_lines_ok : stage_ok false true fuel (skip_empty_lines fuel) ref_empty_lines.
Proof.
  apply agree_stage.
  - intros p t l _ Hg. apply skip_empty_lines_agree. apply Hg.
  - apply ref_empty_lines_adv.
Qed.
Lemma spaces_ok (ms n : bool) :
  stage_ok (A:=unit) n n fuel (if ms then skip_spaces fuel else ret tt) (ref_spaces ms).
Proof.
  destruct ms.
  - apply agree_stage; [|apply ref_spaces_adv]. intros p t l _ Hg. apply skip_spaces_agree, Hg.
  - intros c Hn Hg. apply sim_done; [|reflexivity|reflexivity]. split; [reflexivity|]. split; [exact Hn|exact Hg].
Qed.
Lemma parse_method_ok : stage_ok true true fuel (parse_method E fuel) ref_method.
Proof.
  apply agree_stage; [|intros; apply advances_weaken, ref_method_adv].
  intros p t l Ht [Hb Hl]. rewrite (Ht eq_refl). apply (parse_method_agree E HE); assumption.
Qed.
Lemma parse_uri_ok : stage_ok true true fuel (parse_uri E fuel) ref_target.
Proof.
  apply agree_stage; [|intros; apply advances_weaken, ref_target_adv].
  intros p t l Ht [Hb Hl]. rewrite (Ht eq_refl). apply (parse_uri_agree E HE); assumption.
Qed.
Lemma parse_reason_ok : stage_ok true true fuel (parse_reason fuel) ref_reason.
Proof.
  apply agree_stage; [|intros; apply advances_weaken, ref_reason_adv].
  intros p t l Ht [Hb Hl]. rewrite (Ht eq_refl). apply parse_reason_agree; assumption.
Qed.
Lemma parse_version_ok n : stage_ok n false fuel parse_version ref_version.
Proof. apply agree_nc_stage; [apply parse_version_agree|intros; apply advances_weaken, ref_version_adv]. Qed.
Lemma parse_code_ok n : stage_ok n false fuel parse_code ref_code.
Proof. apply agree_nc_stage; [apply parse_code_agree|intros; apply advances_weaken, ref_code_adv]. Qed.
Lemma newline_ok n : stage_ok n true fuel newline (ref_eol NewLine).
Proof.
  apply agree_stage; [|intros; apply advances_weaken, ref_eol_adv].
  intros p t l _ _. apply (newline_agree (mkcur p t l)).
Qed.
Lemma space_ok e n : stage_ok n true fuel (space e) (ref_sp e).
Proof.
  apply agree_stage; [|intros; apply advances_weaken, ref_sp_adv].
  intros p t l _ _. apply (space_agree e (mkcur p t l)).
Qed.

(* after the code: SP reason | line end *)
Lemma after_code_ok ms n : stage_ok n true fuel (after_code ms fuel) (ref_after_code ms).
Proof.
  intros [p t l] _ Hg. unfold after_code, ref_after_code, apos. cbn [rest tokrev pre].
  destruct l as [|b r]; [reflexivity|]. rewrite next_cons. unfold SP.
  destruct (is 32 b).
  - apply (stage_ok_bind (n := false) (spaces_ok ms false)
             (fun _ => stage_slice false true fuel _ _ parse_reason_ok) (mkcur p (b :: t) r)).
    + intros [=].
    + exact (in_fuel_skipn fuel 1 (b :: r) Hg).
  - destruct (is 13 b || is 10 b) eqn:Eeol.
    + apply (agree_stage_sim true fuel _ (length t + p) (b :: r)); [apply eol_agree| |exact Hg].
      apply advances_weaken, (rbind_adv _ _ _ (fun _ => Ext [])), ref_eol_adv.
    + apply orb_false_elim in Eeol as [E13 E10]. unfold CR, LF. rewrite E13, E10. reflexivity.
Qed.

Variable hc : hcfg.

Lemma headers_loop_agree : forall f f' c start hs arr0,
  length (rest c) < f -> length (rest c) < f' -> tokrev c = [] -> in_fuel fuel (rest c) ->
  headers_loop E fuel hc f start (length hs) (slots_of hs arr0) c
  = (let (st, hs') := ref_header_block hc f' (length arr0) hs (apos c) (rest c) in
     (shift_status start st, length hs', slots_of hs' arr0)).
Proof.
  induction f as [|f IH]; intros f' [p t l] start hs arr0 Hf Hf' Ht [Hb Hfu]; cbn [rest tokrev] in *; [lia|].
  destruct f' as [|f']; [lia|]. subst t. change (apos (mkcur p [] l)) with p.
  cbn [headers_loop ref_header_block].
  rewrite (null_length hs).
  pose proof (header_line_agree E HE fuel hc (Nat.eqb (length hs) 0) l p Hfu Hb) as H.
  pose proof (ref_header_line_adv hc (Nat.eqb (length hs) 0) p l) as Hadv.
  destruct (ref_header_line hc (Nat.eqb (length hs) 0) p l) as [x o r| |e]; cbn [sim] in H;
    [|rewrite H; reflexivity ..].
  destruct H as (a & c' & -> & <- & <- & Hrel & Htok). cbn [stage].
  destruct Hadv as [k (Hk0 & Hk & _ & Hr)].
  assert (Hlt : length (rest c') < length l) by (rewrite Hr, skipn_length; lia).
  assert (Hb' : bytes_ok (rest c')) by (rewrite Hr; apply bytes_ok_skipn; exact Hb).
  destruct a as [| |name value]; cbn [hrel] in Hrel.
  - subst x. reflexivity.
  - subst x. apply IH; [lia|lia|apply Htok; discriminate|split; [exact Hb'|lia]].
  - subst x. rewrite write_slot_slots_of.
    destruct (Nat.ltb (length hs) (length arr0)); [|reflexivity].
    replace (S (length hs)) with (length (hs ++ [(name, trim_value value)]))
      by (rewrite app_length; apply Nat.add_1_r).
    apply IH; [lia|lia|apply Htok; discriminate|split; [exact Hb'|lia]].
Qed.

Lemma headers_iter_agree c arr : tokrev c = [] -> in_fuel fuel (rest c) ->
  parse_headers_iter_uninit E fuel hc arr c
  = (let (st, hs) := ref_headers hc (length arr) (apos c) (rest c) in
     (shift_status (apos c) st, length hs, slots_of hs arr)).
Proof.
  intros Ht Hg.
  exact (headers_loop_agree fuel (S (length (rest c))) c (apos c) [] arr (proj2 Hg) (le_n _) Ht Hg).
Qed.

(* how the three callers use the result: the length is counted from the start of the buffer, the
   ShrinkOnDrop guard keeps the written prefix, and anything but Complete leaves `dflt`; `g` puts the
   headers into the caller's value *)
Lemma headers_finish {R} c arr (g : list slot -> R) dflt : tokrev c = [] -> in_fuel fuel (rest c) ->
  (match parse_headers_iter_uninit E fuel hc arr c with
   | (Complete hl, nh, arr') => (Complete (apos c + hl), g (firstn nh arr'), arr')
   | (st, _, arr') => (st, g dflt, arr')
   end)
  = let (st, hs) := ref_headers hc (length arr) (apos c) (rest c) in
    (st, g (match st with Complete _ => written_of hs | _ => dflt end), slots_of hs arr).
Proof.
  intros Ht Hg. rewrite (headers_iter_agree c arr Ht Hg).
  destruct (ref_headers_inv hc (length arr) (apos c) (rest c)) as (_ & _ & Hm).
  destruct (ref_headers hc (length arr) (apos c) (rest c)) as [st hs].
  destruct st as [o| |e|f]; cbn [shift_status]; try reflexivity.
  destruct (Hm o eq_refl) as [Hm' _]. rewrite firstn_slots_of, Nat.add_comm, Nat.sub_add by (apply Nat.lt_le_incl, Hm').
  reflexivity.
Qed.
End WithEnv.

Section Top.
Variable E : env.
Hypothesis HE : env_ok E.

Lemma headers_part : forall hc buf k o arr,
  bytes_ok buf ->
  parse_headers_iter_uninit E (S (length buf)) hc arr (mkcur o [] (skipn k buf))
  = (let (st, hs) := ref_headers hc (length arr) o (skipn k buf) in
     (shift_status o st, length hs, slots_of hs arr)).
Proof.
  intros hc buf k o arr Hb.
  apply (headers_iter_agree E HE (S (length buf)) hc (mkcur o [] (skipn k buf)) arr eq_refl).
  apply in_fuel_skipn. split; [exact Hb|apply le_n].
Qed.

Theorem parse_headers_ref : forall src dst, bytes_ok src ->
  parse_headers E src dst =
  (let (st, hs) := ref_headers hcfg_default (length dst) 0 src in
   (st, match st with Complete _ => written_of hs | _ => [] end, slots_of hs dst)).
Proof.
  intros src dst Hb.
  exact (headers_finish E HE (S (length src)) hcfg_default (cur_new src) dst (fun h => h) [] eq_refl
           (conj Hb (le_n _))).
Qed.

(* One stage of a core: take the reference's outcome apart; unless it is ROk both sides stop with the same
   status and the fields set so far, otherwise name the value, the cursor and what `stage_rel` says. *)
Ltac stage_step H a c Ht Hg :=
  cbn beta in H;
  match type of H with sim _ _ ?r => destruct r as [a ?o ?l| |?e] end;
  cbn [sim] in H; [|rewrite H; reflexivity ..];
  destruct H as (? & c & -> & <- & <- & -> & Ht & Hg); cbn [stage].

Theorem request_core_ref : forall cf buf rq arr, bytes_ok buf ->
  request_core E cf buf rq arr = req_result rq arr (ref_request cf (length arr) buf).
Proof.
  intros cf buf [m0 p0 v0 h0] arr Hb. unfold request_core, ref_request, ref_request_line, req_result.
  set (fuel := S (length buf)). set (ms := allow_multiple_spaces_in_request_line_delimiters cf).
  assert (G : in_fuel fuel buf) by (split; [exact Hb|apply le_n]).
  pose proof (stage_ok_bind (empty_lines_ok fuel) (fun _ => parse_method_ok E HE fuel)
                (cur_new buf) (fun _ => eq_refl) G) as H.
  cbn [apos cur_new tokrev pre rest length Nat.add rbind] in H.
  destruct (ref_empty_lines 0 buf) as [? o1 l1| |?]; cbn [sim rbind] in H; [|rewrite H; reflexivity ..].
  stage_step H m c1 Ht1 Hg1.
  pose proof (stage_ok_bind (spaces_ok fuel ms true) (fun _ => parse_uri_ok E HE fuel) c1 Ht1 Hg1) as H.
  stage_step H p c2 Ht2 Hg2.
  pose proof (stage_ok_bind (spaces_ok fuel ms true) (fun _ => parse_version_ok fuel true) c2 Ht2 Hg2) as H.
  stage_step H v c3 Ht3 Hg3.
  pose proof (newline_ok fuel false c3 Ht3 Hg3) as H.
  stage_step H u c4 Ht4 Hg4.
  cbn [q_method q_path q_version q_hdrs].
  rewrite (headers_finish E HE fuel (request_hcfg cf) c4 arr (mkreq (Some m) (Some p) (Some v)) h0 (Ht4 eq_refl) Hg4).
  destruct (ref_headers (request_hcfg cf) (length arr) (apos c4) (rest c4)) as [st hs]. reflexivity.
Qed.

Theorem response_core_ref : forall cf buf rp arr, bytes_ok buf ->
  response_core E cf buf rp arr = resp_result rp arr (ref_response cf (length arr) buf).
Proof.
  intros cf buf [v0 c0 r0 h0] arr Hb. unfold response_core, ref_response, ref_status_line, resp_result.
  set (fuel := S (length buf)). set (ms := allow_multiple_spaces_in_response_status_delimiters cf).
  assert (G : in_fuel fuel buf) by (split; [exact Hb|apply le_n]).
  pose proof (stage_ok_bind (empty_lines_ok fuel) (fun _ => parse_version_ok fuel true)
                (cur_new buf) (fun _ => eq_refl) G) as H.
  cbn [apos cur_new tokrev pre rest length Nat.add] in H.
  stage_step H v c1 Ht1 Hg1.
  pose proof (stage_ok_bind (space_ok fuel Version false)
                (fun _ => stage_ok_bind (spaces_ok fuel ms true) (fun _ => parse_code_ok fuel true))
                c1 Ht1 Hg1) as H.
  cbn beta in H. rewrite <- rbind_assoc in H.
  stage_step H code c2 Ht2 Hg2.
  pose proof (after_code_ok fuel ms false c2 Ht2 Hg2) as H.
  stage_step H r c3 Ht3 Hg3.
  cbn [p_version p_code p_reason p_hdrs].
  rewrite (headers_finish E HE fuel (response_hcfg cf) c3 arr (mkresp (Some v) (Some code) (Some r)) h0 (Ht3 eq_refl) Hg3).
  destruct (ref_headers (response_hcfg cf) (length arr) (apos c3) (rest c3)) as [st hs]. reflexivity.
Qed.
End Top.
