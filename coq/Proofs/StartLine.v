(* Proofs/StartLine.v -- each start-line function of the model (Model.v) agrees with the
   corresponding reference stage (Spec.v), for every environment satisfying EnvOk. *)
From Coq Require Import List NArith ZArith Lia Bool ZifyBool ZifyN ZifyNat.
From HV Require Import Cursor Scan Model Spec.
From HV.Proofs Require Import Base RefInd ScanLoops EnvOk.
Import ListNotations.

(* a model stage that ends committed agrees with a reference stage *)
Definition agree {A} (o : out A) (r : rres A) : Prop :=
  match r with
  | ROk a off l => o = Done a (mkcur off [] l)
  | RPart => o = Part
  | RErr e => o = Fail e
  end.

(* a model stage that leaves the token uncommitted: only the absolute position and the
   remaining input are determined *)
Definition agree_nc {A} (o : out A) (r : rres A) : Prop :=
  match r with
  | ROk a off l => exists c', o = Done a c' /\ apos c' = off /\ rest c' = l
  | RPart => o = Part
  | RErr e => o = Fail e
  end.

(* The general comparison, of which the two above are the plainest cases: both sides stop alike, or
   the model ends with a value a at a cursor c that stands where the reference says, and R relates
   a and c to the reference's value. *)
Definition sim {A B} (R : A -> cur -> B -> Prop) (o : out A) (r : rres B) : Prop :=
  match r with
  | ROk b off l => exists a c, o = Done a c /\ apos c = off /\ rest c = l /\ R a c b
  | RPart => o = Part
  | RErr e => o = Fail e
  end.
Definition committed {A B} (R : A -> B -> Prop) (a : A) (c : cur) (b : B) : Prop := R a b /\ tokrev c = [].

Lemma sim_done {A B} (R : A -> cur -> B -> Prop) a c b off l :
  R a c b -> apos c = off -> rest c = l -> sim R (Done a c) (ROk b off l).
Proof. intros H Ho Hl. exists a, c. auto. Qed.
Lemma sim_committed {A B} (R : A -> B -> Prop) a b p off l :
  R a b -> p = off -> sim (committed R) (Done a (mkcur p [] l)) (ROk b off l).
Proof. intros H Ho. apply sim_done; [split; [exact H|reflexivity]|exact Ho|reflexivity]. Qed.

Lemma sim_bind {A A' B B'} {R : A -> cur -> B -> Prop} {R' : A' -> cur -> B' -> Prop} {m : P A} {k c r g} :
  sim R (m c) r -> (forall a c' b, R a c' b -> sim R' (k a c') (g b (apos c') (rest c'))) ->
  sim R' (bind m k c) (rbind r g).
Proof.
  intros H Hk. unfold bind. destruct r as [b off l| |e]; cbn [sim rbind] in *; [|rewrite H; reflexivity ..].
  destruct H as (a & c' & -> & <- & <- & HR). apply Hk, HR.
Qed.
Lemma sim_map {A A' B} (R : A -> cur -> B -> Prop) (R' : A' -> cur -> B -> Prop) (m : P A) (h : A -> A') c r :
  sim R (m c) r -> (forall a c' b, R a c' b -> R' (h a) c' b) -> sim R' ((a <- m ;; ret (h a)) c) r.
Proof.
  intros H HR. unfold bind. destruct r as [b off l| |e]; cbn [sim] in *; [|rewrite H; reflexivity ..].
  destruct H as (a & c' & -> & Ho & Hl & Ha). exact (sim_done R' _ _ _ _ _ (HR _ _ _ Ha) Ho Hl).
Qed.

Lemma agree_sim {A} (o : out A) r : agree o r -> sim (committed eq) o r.
Proof. destruct r; cbn [agree sim]; auto. intros ->. apply sim_committed; reflexivity. Qed.
Lemma agree_nc_sim {A} (o : out A) r : agree_nc o r -> sim (fun a _ b => a = b) o r.
Proof. destruct r as [a off l| |e]; cbn [agree_nc sim]; auto. intros (c & -> & Ho & Hl). exists a, c. auto. Qed.

(* The cursor primitives as rewriting rules: a step of the model is `bind prim k` applied to a
   cursor; each rule says what that is, and holds by computation. *)
Lemma bind_ret {A B} (a : A) (k : A -> P B) c : bind (ret a) k c = k a c.
Proof. reflexivity. Qed.
Lemma bind_assoc {A B C} (m : P A) (k : A -> P B) (h : B -> P C) c :
  bind (bind m k) h c = bind m (fun a => bind (k a) h) c.
Proof. unfold bind. destruct (m c); reflexivity. Qed.
Lemma next_cons {A} (k : N -> P A) p t b r : bind next k (mkcur p t (b :: r)) = k b (mkcur p (b :: t) r).
Proof. reflexivity. Qed.
Lemma pos_eq {A} (k : nat -> P A) c : bind pos k c = k (length (tokrev c)) c.
Proof. reflexivity. Qed.
Lemma peek_eq {A} (k : option N -> P A) c : bind peek k c = k (hd_error (rest c)) c.
Proof. reflexivity. Qed.
Lemma bump_cons {A} (k : unit -> P A) p t b r : bind bump k (mkcur p t (b :: r)) = k tt (mkcur p (b :: t) r).
Proof. reflexivity. Qed.
Lemma slice_eq {A} (k : sl -> P A) c : bind slice k c = k (Sub (pre c) (rev' (tokrev c))) (commit c).
Proof. reflexivity. Qed.
Lemma slice_skip_1 {A} (k : sl -> P A) p b t r :
  bind (slice_skip 1) k (mkcur p (b :: t) r) = k (Sub p (rev' t)) (commit (mkcur p (b :: t) r)).
Proof. reflexivity. Qed.
Lemma expect_cons {A} q e (k : N -> P A) p t b r :
  bind (expect q e) k (mkcur p t (b :: r)) = if q b then k b (mkcur p (b :: t) r) else Fail e.
Proof. unfold expect. rewrite bind_assoc, next_cons. destruct (q b); reflexivity. Qed.

Lemma scan_eq {A} s cls (k : unit -> P A) f c :
  scan_exact s cls -> bytes_ok (rest c) -> length (rest c) < f ->
  bind (s f) k c = k tt (adv (first_bad cls (rest c)) c).
Proof. intros H Hb Hl. unfold bind. rewrite (H f c Hb Hl). reflexivity. Qed.

Section WithEnv.
Variable E : env.
Hypothesis HE : env_ok E.

Lemma skip_empty_lines_agree : forall f l t p,
  length l < f ->
  agree (skip_empty_lines_f f (mkcur p t l)) (ref_empty_lines (length t + p) l).
Proof.
  induction f as [|f IH]; intros l t p Hl; [lia|].
  destruct l as [|b r]; [reflexivity|].
  cbn [skip_empty_lines_f ref_empty_lines length] in *. rewrite peek_eq. cbn [rest hd_error]. unfold CR, LF.
  destruct (is 13 b).
  - rewrite bump_cons. destruct r as [|b2 r2]; [reflexivity|]. rewrite expect_cons.
    destruct (is 10 b2); [|reflexivity].
    apply (IH r2 (b2 :: b :: t) p). cbn [length] in Hl. lia.
  - destruct (is 10 b); [|reflexivity].
    rewrite bump_cons. apply (IH r (b :: t) p). lia.
Qed.

Lemma skip_spaces_agree : forall f l t p,
  length l < f ->
  agree (skip_spaces_f f (mkcur p t l)) (ref_spaces true (length t + p) l).
Proof.
  induction f as [|f IH]; intros l t p Hl; [lia|].
  destruct l as [|b r]; [reflexivity|].
  cbn [skip_spaces_f length] in *. unfold ref_spaces. cbn [span]. rewrite peek_eq. cbn [rest hd_error]. unfold SP.
  destruct (is 32 b); [|reflexivity].
  rewrite bump_cons. specialize (IH r (b :: t) p ltac:(lia)). unfold ref_spaces in IH.
  destruct (span (is 32) r) as [s r']. destruct r' as [|x r'']; [exact IH|].
  cbn [agree length Nat.add] in *. rewrite IH, Nat.add_succ_r. reflexivity.
Qed.

Lemma tchar_sp b : is 32 b = true -> tchar b = false.
Proof. intros H. apply is_eq in H. subst. reflexivity. Qed.

Definition ref_token_tail (p : nat) (t : list N) (l : list N) : rres sl :=
  let (m, r) := span tchar l in
  match r with
  | [] => RPart
  | b :: r' =>
      if is 32 b then ROk (Sub p (rev t ++ m)) (S (length m + length t) + p) r' else RErr Token
  end.

Lemma ref_token_tail_cons p t b r : tchar b = true ->
  ref_token_tail p t (b :: r) = ref_token_tail p (b :: t) r.
Proof.
  intros Hb. unfold ref_token_tail. cbn [span]. rewrite Hb.
  destruct (span tchar r) as [m [|b' r']]; [reflexivity|].
  cbn [rev length]. rewrite <- app_assoc, Nat.add_succ_r. reflexivity.
Qed.
Lemma ref_method_cons p b r : tchar b = true -> ref_method p (b :: r) = ref_token_tail p [b] r.
Proof.
  intros Hb. unfold ref_method, ref_token_tail. cbn [span]. rewrite Hb.
  destruct (span tchar r) as [m [|b' r']]; [reflexivity|].
  cbn [length]. rewrite Nat.add_1_r. reflexivity.
Qed.

Lemma parse_token_f_agree : forall f l t p,
  length l < f -> bytes_ok l ->
  agree (parse_token_f E f (mkcur p t l)) (ref_token_tail p t l).
Proof.
  induction f as [|f IH]; intros l t p Hl Hb; [lia|].
  destruct l as [|b r]; [reflexivity|].
  apply bytes_ok_cons in Hb as [Hb0 Hbr]. apply Nat.succ_lt_mono in Hl.
  cbn [parse_token_f]. rewrite next_cons, (ok_method E HE b Hb0). unfold SP.
  destruct (is 32 b) eqn:E32.
  - unfold ref_token_tail. cbn [span]. rewrite (tchar_sp b E32), E32, app_nil_r, <- rev'_rev. reflexivity.
  - destruct (tchar b) eqn:Et; cbn [negb].
    + rewrite ref_token_tail_cons by exact Et. apply IH; assumption.
    + unfold ref_token_tail. cbn [span]. rewrite Et, E32. reflexivity.
Qed.

Lemma parse_token_agree : forall f l p,
  length l < f -> bytes_ok l ->
  agree (parse_token E f (mkcur p [] l)) (ref_method p l).
Proof.
  intros f l p Hl Hb. unfold parse_token.
  destruct l as [|b r]; [reflexivity|].
  apply bytes_ok_cons in Hb as [Hb0 Hbr]. rewrite next_cons, (ok_method E HE b Hb0).
  destruct (tchar b) eqn:Et; cbn [negb].
  - rewrite ref_method_cons by exact Et. apply parse_token_f_agree; [exact (Nat.lt_succ_l _ _ Hl)|exact Hbr].
  - unfold ref_method. cbn [span]. rewrite Et. reflexivity.
Qed.

Lemma list_eqb_true a b : list_eqb a b = true -> a = b.
Proof.
  revert b; induction a as [|x a IH]; intros [|y b]; cbn; try discriminate; [reflexivity|].
  intros H. apply andb_prop in H as [H1 H2]. apply N.eqb_eq in H1. f_equal; auto.
Qed.

Lemma take_app n l a : take n l = Some a -> exists r, l = a ++ r.
Proof.
  rewrite take_spec. destruct (Nat.leb n (length l)); [|discriminate].
  intros [= <-]. exists (skipn n l). symmetry. apply firstn_skipn.
Qed.

(* the two fast paths are what the general path does on "GET " and "POST " *)
Lemma parse_method_agree : forall f l p,
  length l < f -> bytes_ok l ->
  agree (parse_method E f (mkcur p [] l)) (ref_method p l).
Proof.
  intros f l p Hl Hb. unfold parse_method.
  unfold bind at 1. unfold peek_n. cbn [rest].
  destruct (take 4 l) as [four|] eqn:E4; [|apply parse_token_agree; assumption].
  apply take_app in E4 as [r ->].
  destruct (list_eqb four GET_) eqn:EG.
  - apply list_eqb_true in EG. subst four. reflexivity.
  - destruct (list_eqb four POST) eqn:EP; [|apply parse_token_agree; assumption].
    apply list_eqb_true in EP. subst four. unfold bind at 1. unfold peek_ahead. cbn [rest app POST drop].
    destruct r as [|b r']; cbn [hd_error]; [apply parse_token_agree; assumption|].
    destruct (is SP b) eqn:ES; [|apply parse_token_agree; assumption].
    unfold SP in ES. rewrite ref_method_cons, !ref_token_tail_cons by reflexivity.
    unfold ref_token_tail. cbn [span]. rewrite (tchar_sp b ES), ES. reflexivity.
Qed.

Lemma null_length {A} (l : list A) : null l = Nat.eqb (length l) 0.
Proof. destruct l; reflexivity. Qed.

Lemma parse_uri_agree : forall f l p,
  length l < f -> bytes_ok l ->
  agree (parse_uri E f (mkcur p [] l)) (ref_target p l).
Proof.
  intros f l p Hl Hb. unfold parse_uri, ref_target.
  rewrite pos_eq, (scan_eq _ _ _ _ (mkcur p [] l) (ok_s_uri E HE) Hb Hl), pos_eq, span_first_bad.
  unfold adv. cbn [rest pre tokrev length]. rewrite app_nil_r, rev_length, <- null_length.
  generalize (firstn (first_bad uri_char l) l). intros m.
  destruct (skipn (first_bad uri_char l) l) as [|b r']; [reflexivity|].
  rewrite next_cons. unfold SP. destruct (is 32 b); [|reflexivity]. cbn [negb].
  destruct (null m); [reflexivity|].
  rewrite slice_skip_1, rev'_rev, rev_involutive. cbn [sl_bytes].
  destruct (utf8_valid m); [|reflexivity].
  cbn [negb agree]. unfold commit, ret. cbn [tokrev pre rest length]. rewrite rev_length. reflexivity.
Qed.

(* newline!, and the same shape with another error and value (after_code) *)
Lemma eol_agree {A} (a : A) e p t b r :
  agree ((if is CR b then expect (is LF) e ;;; slice ;;; ret a else if is LF b then slice ;;; ret a else fail e)
           (mkcur p (b :: t) r))
        (rbind (ref_eol e (length t + p) (b :: r)) (fun _ o r' => ROk a o r')).
Proof.
  unfold ref_eol, CR, LF. destruct (is 13 b).
  - destruct r as [|b2 r2]; [reflexivity|]. rewrite expect_cons. destruct (is 10 b2); reflexivity.
  - destruct (is 10 b); reflexivity.
Qed.

Lemma newline_agree : forall c,
  agree (newline c) (ref_eol NewLine (apos c) (rest c)).
Proof.
  intros [p t [|b r]]; [reflexivity|]. pose proof (eol_agree tt NewLine p t b r) as H.
  unfold apos. cbn [rest tokrev pre].
  destruct (ref_eol NewLine (length t + p) (b :: r)) as [[] o r'| |e]; exact H.
Qed.

Fixpoint expect_all {A} (ks : list N) (e : err) : P A :=
  match ks with [] => part | k :: ks' => expect (is k) e ;;; expect_all ks' e end.

Lemma expect_all_short {A} e : forall ks l p t, length l <= length ks ->
  @expect_all A ks e (mkcur p t l) = if is_prefix l ks then Part else Fail e.
Proof.
  induction ks as [|k ks IH]; intros [|x l] p t Hl; try reflexivity; [inversion Hl|].
  cbn [expect_all is_prefix]. rewrite expect_cons. change (is k x) with (N.eqb x k).
  destruct (N.eqb x k); [|reflexivity]. apply IH. exact (le_S_n _ _ Hl).
Qed.

Lemma parse_version_agree : forall c,
  agree_nc (parse_version c) (ref_version (apos c) (rest c)).
Proof.
  intros [p t l]. unfold parse_version, ref_version. cbn [apos rest tokrev pre].
  unfold bind at 1. unfold peek_n. cbn [rest]. rewrite take_spec.
  destruct (Nat.leb_spec 8 (length l)) as [H8|H8].
  - unfold bind at 1. rewrite advance_adv by exact H8.
    assert (Hok : forall v : N, agree_nc (Done v (adv 8 (mkcur p t l))) (ROk v (8 + (length t + p)) (skipn 8 l))).
    { intros v. exists (adv 8 (mkcur p t l)). split; [reflexivity|]. split; [|reflexivity].
      unfold adv, apos. cbn [pre tokrev rest]. rewrite app_length, rev_length, firstn_length_le by exact H8.
      symmetry. apply Nat.add_assoc. }
    change (HTTP1dot ++ [48%N]) with H10. change (HTTP1dot ++ [49%N]) with H11.
    destruct (list_eqb (firstn 8 l) H10); [apply Hok|].
    destruct (list_eqb (firstn 8 l) H11); [apply Hok|reflexivity].
  - change (agree_nc (A:=N) (expect_all HTTP1dot Version (mkcur p t l))
                     (if is_prefix l HTTP1dot then RPart else RErr Version)).
    rewrite expect_all_short by exact (proj1 (Nat.lt_succ_r _ _) H8).
    destruct (is_prefix l HTTP1dot); reflexivity.
Qed.

Lemma space_agree : forall e c, agree (space e c) (ref_sp e (apos c) (rest c)).
Proof.
  intros e [p t l]. unfold ref_sp. cbn [apos rest tokrev pre].
  destruct l as [|b r]; [reflexivity|]. unfold space, SP. rewrite expect_cons.
  destruct (is 32 b); reflexivity.
Qed.

Lemma parse_code_agree : forall c, agree_nc (parse_code c) (ref_code (apos c) (rest c)).
Proof.
  intros [p t l]. unfold parse_code, ref_code. cbn [apos rest tokrev pre].
  change is_digit with digit.
  destruct l as [|a r1]; [reflexivity|]. rewrite expect_cons. destruct (digit a); [|reflexivity].
  destruct r1 as [|b r2]; [reflexivity|]. rewrite expect_cons. destruct (digit b); [|reflexivity].
  destruct r2 as [|c r3]; [reflexivity|]. rewrite expect_cons. destruct (digit c); [|reflexivity].
  eexists. split; [reflexivity|]. split; reflexivity.
Qed.

Lemma reason_byte_char b : (b < 256)%N -> reason_byte b = reason_char b.
Proof.
  intros H. unfold reason_byte, reason_char, in_range, SP.
  replace (b <=? 255)%N with true by (symmetry; apply N.leb_le; lia).
  rewrite andb_true_r. reflexivity.
Qed.
Lemma reason_char_not_eol b : reason_char b = true -> is 13 b = false /\ is 10 b = false.
Proof.
  unfold reason_char, is, in_range. intros H. split; apply N.eqb_neq; intros ->; discriminate.
Qed.

Definition ref_reason_tail (seen : bool) (p : nat) (t : list N) (l : list N) : rres sl :=
  let (m, r) := span reason_char l in
  let s := if seen || negb (forallb (fun b => N.ltb b 128) m) then Ext [] else Sub p (rev t ++ m) in
  match ref_eol Status (length m + (length t + p)) r with
  | ROk _ o r' => ROk s o r'
  | RPart => RPart
  | RErr e => RErr e
  end.

Lemma ref_reason_tail_cons seen p t b r : reason_char b = true ->
  ref_reason_tail seen p t (b :: r) = ref_reason_tail (seen || (128 <=? b)%N) p (b :: t) r.
Proof.
  intros Hb. unfold ref_reason_tail. cbn [span]. rewrite Hb.
  destruct (span reason_char r) as [m r'].
  cbn [forallb length rev Nat.add].
  rewrite <- app_assoc, Nat.add_succ_r, N.ltb_antisym, negb_andb, negb_involutive, orb_assoc. reflexivity.
Qed.

Lemma parse_reason_f_agree : forall f l seen t p,
  length l < f -> bytes_ok l ->
  agree (parse_reason_f f seen (mkcur p t l)) (ref_reason_tail seen p t l).
Proof.
  induction f as [|f IH]; intros l seen t p Hl Hb; [lia|].
  destruct l as [|b r]; [reflexivity|].
  apply bytes_ok_cons in Hb as [Hb0 Hbr]. apply Nat.succ_lt_mono in Hl.
  cbn [parse_reason_f]. rewrite next_cons, (reason_byte_char b Hb0). unfold CR, LF.
  destruct (reason_char b) eqn:Er.
  - destruct (reason_char_not_eol b Er) as [-> ->]. cbn [negb].
    rewrite ref_reason_tail_cons by exact Er. apply IH; assumption.
  - (* the phrase ends at b, which must open a line end *)
    unfold ref_reason_tail. cbn [span]. rewrite Er. cbn [forallb negb length rev app Nat.add].
    rewrite orb_false_r, app_nil_r, <- rev'_rev. unfold ref_eol.
    destruct (is 13 b).
    + destruct r as [|b2 r2]; [reflexivity|]. rewrite expect_cons.
      destruct (is 10 b2); [destruct seen; reflexivity|reflexivity].
    + destruct (is 10 b); [destruct seen; reflexivity|reflexivity].
Qed.

Lemma parse_reason_agree : forall f l p,
  length l < f -> bytes_ok l ->
  agree (parse_reason f (mkcur p [] l)) (ref_reason p l).
Proof.
  intros f l p Hl Hb. pose proof (parse_reason_f_agree f l false [] p Hl Hb) as H.
  unfold parse_reason, ref_reason, ref_reason_tail in *.
  destruct (span reason_char l) as [m r]. cbn [orb rev app length Nat.add] in H.
  destruct (forallb (fun b => N.ltb b 128) m); cbn [negb] in H; exact H.
Qed.
End WithEnv.
