(* Proofs/RefInd.v -- the reference grammar (Spec.v) by cases.  For each recursive reference function
   (`ref_empty_lines`, the two value stages, `ref_header_block`) an induction principle with one case per
   way the function can go on, and beside it the equation of each case (`rel_*`, `rvl_*`, `rvs_*`,
   `ref_header_block_S`); for a header line and the start lines, one equation or case analysis.  A
   property of one run applies the principle; a property that compares two runs applies it to the first
   and moves the second by the equation of the same case, or, where the two runs' fuel differs, goes by
   induction on the fuel. *)
From Coq Require Import List NArith PeanoNat Lia Bool Wf_nat.
From HV Require Import Cursor Scan Model Api Spec.
From HV.Proofs Require Import Base.
Import ListNotations.

Lemma is_eq k b : is k b = true -> b = k.
Proof. apply N.eqb_eq. Qed.
Lemma ws_inv b : ws b = true -> b = 32%N \/ b = 9%N.
Proof. intros H. apply orb_prop in H as [H|H]; apply is_eq in H; [left|right]; exact H. Qed.

Lemma rev'_rev {A} (l : list A) : rev' l = rev l.
Proof. unfold rev'. rewrite rev_alt. reflexivity. Qed.

Lemma drop_while_suffix p l : exists a, l = a ++ drop_while p l.
Proof.
  induction l as [|x l [a IH]]; [exists []; reflexivity|]. cbn [drop_while].
  destruct (p x); [exists (x :: a); cbn [app]; f_equal; exact IH|exists []; reflexivity].
Qed.
Lemma drop_while_head p l x r : drop_while p l = x :: r -> p x = false.
Proof.
  induction l as [|y l IH]; cbn [drop_while]; [discriminate|]. destruct (p y) eqn:E; [exact IH|].
  intros [= <- _]. exact E.
Qed.

(* `ref_reason` and `ref_after_code` relabel the result of `ref_eol` by a `match` that is
   `rbind .. (fun _ o r => ROk s o r)` written out, so the lemmas about a relabelling `rbind` (`rbind_adv`,
   `extends_rbind`, `outcome_map`) apply to those two stages as they stand. *)
Lemma rbind_inv {A B} (x : rres A) (g : A -> nat -> list N -> rres B) b o r :
  rbind x g = ROk b o r -> exists a o' r', x = ROk a o' r' /\ g a o' r' = ROk b o r.
Proof. destruct x as [a o' r'| |]; cbn [rbind]; try discriminate. eauto. Qed.
Lemma rbind_assoc {A B C} (x : rres A) (f : A -> nat -> list N -> rres B) (g : B -> nat -> list N -> rres C) :
  rbind (rbind x f) g = rbind x (fun a o l => rbind (f a o l) g).
Proof. destruct x; reflexivity. Qed.

Lemma span_first_bad p l : span p l = (firstn (first_bad p l) l, skipn (first_bad p l) l).
Proof.
  induction l as [|b r IH]; [reflexivity|]. cbn [span first_bad].
  destruct (p b); [|reflexivity]. rewrite IH. reflexivity.
Qed.
Lemma span_app p l : l = fst (span p l) ++ snd (span p l).
Proof. rewrite span_first_bad. symmetry. apply firstn_skipn. Qed.
Lemma span_forallb p l : forallb p (fst (span p l)) = true.
Proof. rewrite span_first_bad. apply first_bad_prefix_ok. Qed.
Lemma span_stop p l b r : snd (span p l) = b :: r -> p b = false.
Proof.
  induction l as [|x l IH]; cbn [span]; [discriminate|].
  destruct (p x) eqn:E.
  - destruct (span p l) as [a t]. cbn [snd] in *. exact IH.
  - cbn [snd]. intros [= <- _]. exact E.
Qed.
Lemma span_eq p l a t : span p l = (a, t) -> l = a ++ t /\ forallb p a = true.
Proof.
  intros E. pose proof (span_app p l) as H1. pose proof (span_forallb p l) as H2.
  rewrite E in H1, H2. split; assumption.
Qed.
Lemma span_head p b l a t : span p (b :: l) = (a, t) -> p b = true -> a <> [].
Proof. cbn [span]. intros E Hb. rewrite Hb in E. destruct (span p l). injection E as <- _. discriminate. Qed.

Lemma span_append p l e :
  span p (l ++ e) =
  let (a, t) := span p l in
  match t with [] => let (a', t') := span p e in (a ++ a', t') | _ => (a, t ++ e) end.
Proof.
  induction l as [|x l IH]; cbn [span app]; [destruct (span p e); reflexivity|].
  destruct (p x); [|reflexivity]. rewrite IH.
  destruct (span p l) as [a [|c t]]; [destruct (span p e)|]; reflexivity.
Qed.
Lemma span_ext p l e a b r : span p l = (a, b :: r) -> span p (l ++ e) = (a, b :: r ++ e).
Proof. intros H. rewrite span_append, H. reflexivity. Qed.

(* The same as a case analysis on `span p l`, as seen from the inputs that extend l: a run that
   reached the end of l stops at the first byte c outside p. *)
Inductive span_view (p : N -> bool) (l : list N) : list N * list N -> Prop :=
| SpanStop a c r : (forall e, span p (l ++ e) = (a, c :: r ++ e)) -> span_view p l (a, c :: r)
| SpanEnd : span p l = (l, []) -> (forall c e, p c = false -> span p (l ++ c :: e) = (l, c :: e)) ->
            span_view p l (l, []).
Lemma span_viewP p l : span_view p l (span p l).
Proof.
  pose proof (span_app p l) as Hl. pose proof (span_append p l) as Ha.
  destruct (span p l) as [a [|c r]] eqn:Es; cbn [fst snd] in Hl.
  - rewrite app_nil_r in Hl. subst a. apply SpanEnd; [exact Es|]. intros c e Hc.
    rewrite Ha. cbn [span]. rewrite Hc, app_nil_r. reflexivity.
  - apply SpanStop. intros e. apply span_ext, Es.
Qed.

Lemma opt_span_ext (on : bool) p l w c r e :
  (if on then span p l else ([], l)) = (w, c :: r) ->
  (if on then span p (l ++ e) else ([], l ++ e)) = (w, c :: r ++ e).
Proof. destruct on; [apply span_ext|]. intros [= <- ->]. reflexivity. Qed.
Lemma opt_span_end (on : bool) p l w c :
  (if on then span p l else ([], l)) = (w, []) -> p c = false ->
  forall e, (if on then span p (l ++ c :: e) else ([], l ++ c :: e)) = (w, c :: e).
Proof.
  destruct on; [|intros [= <- ->] _ e; reflexivity]. intros Es Hc e.
  destruct (span_viewP p l) as [|_ Hs]; [discriminate|]. injection Es as <-. apply Hs, Hc.
Qed.
Lemma opt_span_eq (on : bool) p l w r :
  (if on then span p l else ([], l)) = (w, r) -> l = w ++ r /\ forallb p w = true.
Proof. destruct on; [apply span_eq|]. intros [= <- <-]. split; reflexivity. Qed.

Definition is_eol (e : list N) : Prop := e = [10%N] \/ e = [13%N; 10%N].

Lemma eol_ne e : is_eol e -> e <> [].
Proof. intros [->| ->]; discriminate. Qed.

Lemma eol_at_ok off l o r : eol_at off l = EolOk o r ->
  exists e, is_eol e /\ l = e ++ r /\ o = length e + off.
Proof.
  unfold eol_at. destruct l as [|b l']; [discriminate|].
  destruct (is 13 b) eqn:E13.
  - apply is_eq in E13. subst b. destruct l' as [|b2 r2]; [discriminate|].
    destruct (is 10 b2) eqn:E10; [|discriminate]. apply is_eq in E10. subst b2.
    intros [= <- <-]. exists [13%N; 10%N]. split; [right; reflexivity|split; reflexivity].
  - destruct (is 10 b) eqn:E10; [|discriminate]. apply is_eq in E10. subst b.
    intros [= <- <-]. exists [10%N]. split; [left; reflexivity|split; reflexivity].
Qed.

Lemma eol_at_part off l : eol_at off l = EolPart -> l = [] \/ l = [13%N].
Proof.
  unfold eol_at. destruct l as [|b [|b2 r]]; [left; reflexivity| |].
  - destruct (is 13 b) eqn:E; [|destruct (is 10 b); discriminate].
    intros _. apply is_eq in E. subst b. right. reflexivity.
  - destruct (is 13 b); [destruct (is 10 b2)|destruct (is 10 b)]; discriminate.
Qed.
Lemma eol_at_shift k off l :
  eol_at (k + off) l = match eol_at off l with EolOk o r => EolOk (k + o) r | x => x end.
Proof.
  unfold eol_at. destruct l as [|b r]; [reflexivity|]. destruct (is 13 b).
  - destruct r as [|b2 r2]; [reflexivity|]. destruct (is 10 b2); [|reflexivity]. f_equal. lia.
  - destruct (is 10 b); [|reflexivity]. f_equal. lia.
Qed.
Lemma eol_at_app off l e :
  match eol_at off l with
  | EolOk o r => eol_at off (l ++ e) = EolOk o (r ++ e)
  | EolPart => True
  | x => eol_at off (l ++ e) = x
  end.
Proof.
  unfold eol_at. destruct l as [|b r]; [exact I|]. cbn [app]. destruct (is 13 b).
  - destruct r as [|b2 r2]; [exact I|]. cbn [app]. destruct (is 10 b2); reflexivity.
  - destruct (is 10 b); reflexivity.
Qed.
Lemma eol_at_ext off l o r e : eol_at off l = EolOk o r -> eol_at off (l ++ e) = EolOk o (r ++ e).
Proof. intros E. pose proof (eol_at_app off l e) as H. rewrite E in H. exact H. Qed.

Definition on_eol {A} (off : nat) (l : list N) (ok : nat -> list N -> rres A) (bad none : rres A) : rres A :=
  match eol_at off l with EolOk o r => ok o r | EolPart => RPart | EolBad => bad | EolNone => none end.

Lemma on_eol_none {A} off l e (ok : nat -> list N -> rres A) bad none :
  eol_at off l = EolNone -> on_eol off (l ++ e) ok bad none = none.
Proof. intros E. pose proof (eol_at_app off l e) as H. rewrite E in H. unfold on_eol. rewrite H. reflexivity. Qed.
Lemma on_eol_stable {A} ext (R : rres A -> rres A -> Prop) off l ok bad none none' :
  (forall x, R RPart x) -> R bad bad ->
  (forall o r, eol_at off l = EolOk o r -> R (ok o r) (ok o (r ++ ext))) ->
  (eol_at off l = EolNone -> R none none') ->
  R (on_eol off l ok bad none) (on_eol off (l ++ ext) ok bad none').
Proof.
  intros Hp Hb Hok Hn. pose proof (eol_at_app off l ext) as H. unfold on_eol.
  destruct (eol_at off l) as [o r| | |]; [rewrite H; apply Hok; reflexivity|apply Hp|rewrite H; exact Hb|].
  rewrite H. apply Hn. reflexivity.
Qed.

Lemma ref_eol_eq e off l : ref_eol e off l = on_eol off l (ROk tt) (RErr e) (RErr e).
Proof.
  unfold ref_eol, on_eol, eol_at. destruct l as [|b [|b2 r]]; try reflexivity;
    destruct (is 13 b), (is 10 b); try reflexivity; destruct (is 10 b2); reflexivity.
Qed.
Lemma ref_eol_ok e off l u o r : ref_eol e off l = ROk u o r ->
  exists el, is_eol el /\ l = el ++ r /\ o = length el + off.
Proof.
  rewrite ref_eol_eq. unfold on_eol. destruct (eol_at off l) as [o' r'| | |] eqn:E; try discriminate.
  intros [= _ <- <-]. exact (eol_at_ok _ _ _ _ E).
Qed.
Lemma ref_empty_lines_eq off l :
  ref_empty_lines off l = on_eol off l ref_empty_lines (RErr NewLine) (ROk tt off l).
Proof.
  unfold on_eol, eol_at. destruct l as [|b [|b2 r]]; cbn [ref_empty_lines]; try reflexivity;
    destruct (is 13 b), (is 10 b); try reflexivity; destruct (is 10 b2); reflexivity.
Qed.

Lemma rel_err off b2 r2 : is 10 b2 = false -> ref_empty_lines off (13%N :: b2 :: r2) = RErr NewLine.
Proof. intros H10. cbn [ref_empty_lines]. rewrite H10. reflexivity. Qed.
Lemma rel_eol off e r : is_eol e -> ref_empty_lines off (e ++ r) = ref_empty_lines (length e + off) r.
Proof. intros [->| ->]; reflexivity. Qed.
Lemma rel_stop off b r : is 13 b = false -> is 10 b = false -> ref_empty_lines off (b :: r) = ROk tt off (b :: r).
Proof. intros H13 H10. cbn [ref_empty_lines]. rewrite H13, H10. reflexivity. Qed.

Lemma ref_empty_lines_ind (Q : nat -> list N -> rres unit -> Prop) :
  (forall off l, eol_at off l = EolPart -> Q off l RPart) ->
  (forall off b2 r2, is 10 b2 = false -> Q off (13%N :: b2 :: r2) (RErr NewLine)) ->
  (forall off e r x, is_eol e -> Q (length e + off) r x -> Q off (e ++ r) x) ->
  (forall off b r, is 13 b = false -> is 10 b = false -> Q off (b :: r) (ROk tt off (b :: r))) ->
  forall off l, Q off l (ref_empty_lines off l).
Proof.
  intros Hp He Hl Hs off l. revert off.
  induction l as [l IH] using (induction_ltof1 _ (@length N)). unfold ltof in IH. intros off.
  destruct l as [|b r]; [apply Hp; reflexivity|]. destruct (is 13 b) eqn:E13.
  - apply is_eq in E13. subst b. destruct r as [|b2 r2]; [apply Hp; reflexivity|].
    destruct (is 10 b2) eqn:E10; [|rewrite rel_err by exact E10; apply He, E10].
    apply is_eq in E10. subst b2. assert (Hrn : is_eol [13; 10]%N) by (right; reflexivity).
    change (13 :: 10 :: r2)%N with ([13; 10]%N ++ r2). rewrite (rel_eol off _ r2 Hrn).
    apply Hl; [exact Hrn|]. apply IH. cbn [length app]. lia.
  - destruct (is 10 b) eqn:E10; [|rewrite rel_stop by assumption; apply Hs; assumption].
    apply is_eq in E10. subst b. assert (Hn : is_eol [10%N]) by (left; reflexivity).
    change (10%N :: r) with ([10%N] ++ r). rewrite (rel_eol off _ r Hn).
    apply Hl; [exact Hn|]. apply IH. cbn [length app]. lia.
Qed.

Definition junk_byte (b : N) : bool := negb (is 13 b || is 10 b || is 0 b).

Lemma ref_invalid_eq e off l :
  ref_invalid true e off l =
  let (junk, r) := span junk_byte l in on_eol (length junk + off) r (ROk LSkip) (RErr e) (RErr e).
Proof.
  unfold ref_invalid. cbn [negb]. fold junk_byte. pose proof (span_stop junk_byte l) as Hs.
  destruct (span junk_byte l) as [junk r]. cbn [snd] in Hs. unfold on_eol, eol_at.
  destruct r as [|b r1]; [reflexivity|]. specialize (Hs b r1 eq_refl). apply negb_false_iff in Hs.
  destruct (is 13 b) eqn:E13.
  - apply is_eq in E13. subst b. cbn. destruct r1 as [|b2 r2]; [reflexivity|]. destruct (is 10 b2); reflexivity.
  - destruct (is 10 b) eqn:E10; cbn [orb] in Hs.
    + apply is_eq in E10. subst b. reflexivity.
    + rewrite Hs. reflexivity.
Qed.

Lemma ref_invalid_junk e off b r : junk_byte b = true ->
  ref_invalid true e off (b :: r) = ref_invalid true e (S off) r.
Proof.
  intros H. rewrite !ref_invalid_eq. cbn [span]. rewrite H. destruct (span junk_byte r) as [junk r'].
  cbn [length]. rewrite Nat.add_succ_r. reflexivity.
Qed.
Lemma ref_invalid_stop e off b r : junk_byte b = false ->
  ref_invalid true e off (b :: r) = on_eol off (b :: r) (ROk LSkip) (RErr e) (RErr e).
Proof. intros H. rewrite ref_invalid_eq. cbn [span]. rewrite H. reflexivity. Qed.

Lemma ref_invalid_ok ign e off l x o r : ref_invalid ign e off l = ROk x o r ->
  ign = true /\ x = LSkip /\
  exists junk el, l = junk ++ el ++ r /\ forallb junk_byte junk = true /\ is_eol el /\
                  o = length junk + length el + off.
Proof.
  destruct ign; [|discriminate]. rewrite ref_invalid_eq.
  pose proof (span_app junk_byte l) as Hl. pose proof (span_forallb junk_byte l) as Hj.
  destruct (span junk_byte l) as [junk t]. cbn [fst snd] in *. unfold on_eol.
  destruct (eol_at (length junk + off) t) as [o' r'| | |] eqn:Ee; try discriminate.
  intros [= <- <- <-]. apply eol_at_ok in Ee as (el & Hel & -> & ->).
  repeat split. exists junk, el. repeat split; [exact Hl|exact Hj|exact Hel|lia].
Qed.
Lemma ref_invalid_err ign e off l e' : ref_invalid ign e off l = RErr e' -> e' = e.
Proof.
  destruct ign; [|intros [= <-]; reflexivity]. rewrite ref_invalid_eq.
  destruct (span junk_byte l) as [junk t]. unfold on_eol.
  destruct (eol_at _ t); intros [= <-]; reflexivity.
Qed.

Lemma ref_invalid_part ign e off l : ref_invalid ign e off l = RPart ->
  exists junk t, l = junk ++ t /\ forallb junk_byte junk = true /\ (t = [] \/ t = [13%N]).
Proof.
  destruct ign; [|discriminate]. rewrite ref_invalid_eq.
  destruct (span junk_byte l) as [junk t] eqn:Es. apply span_eq in Es as [-> Hj]. unfold on_eol.
  destruct (eol_at (length junk + off) t) eqn:Ee; try discriminate. intros _.
  exists junk, t. split; [reflexivity|split; [exact Hj|exact (eol_at_part _ _ Ee)]].
Qed.

Section Headers.
Variable hc : hcfg.
Notation fold := (allow_obsolete_multiline_headers hc).
Notation ign := (ignore_invalid_headers hc).

(* the input ends before it is known whether the value goes on *)
Definition vpart (l : list N) : Prop := l = [] \/ l = [13%N] \/ (fold = true /\ is_eol l).
(* what follows a line end does not continue the value *)
Definition vstop (r : list N) : Prop := fold = false \/ exists b r', r = b :: r' /\ ws b = false.
Definition vtrim (voff : nat) (racc : list N) : sl := Sub voff (rev' (drop_while is_trim racc)).
Definition vinvalid (off : nat) (l : list N) : rres sl :=
  rbind (ref_invalid ign HeaderValue off l) (fun _ o r => ROk (Ext [255%N]) o r).

Lemma vinvalid_ok off l s o r : vinvalid off l = ROk s o r -> s = Ext [255%N].
Proof.
  unfold vinvalid. destruct (ref_invalid _ _ off l); cbn [rbind]; [|discriminate..].
  intros [= <- _ _]. reflexivity.
Qed.

(* How the input of a value stage begins; the two stages differ only in what they do with a
   value byte. *)
Inductive vhead : list N -> Type :=
| VhPart l : vpart l -> vhead l
| VhErr b2 r2 : is 10 b2 = false -> vhead (13%N :: b2 :: r2)
| VhChar b r : value_char b = true -> vhead (b :: r)
| VhStop e r : is_eol e -> vstop r -> vhead (e ++ r)
| VhFold e b r : is_eol e -> fold = true -> ws b = true -> vhead (e ++ b :: r)
| VhBad b r : value_char b = false -> is 13 b = false -> is 10 b = false -> vhead (b :: r).

Lemma vhead_of l : vhead l.
Proof.
  assert (After : forall e r, is_eol e -> vhead (e ++ r)).
  { intros e r He. destruct fold eqn:Ef; [|apply VhStop; [exact He|left; exact Ef]].
    destruct r as [|b r']; [rewrite app_nil_r; apply VhPart; right; right; split; [exact Ef|exact He]|].
    destruct (ws b) eqn:Ew; [apply VhFold; assumption|apply VhStop; [exact He|right; eauto]]. }
  destruct l as [|b r]; [apply VhPart; left; reflexivity|].
  destruct (value_char b) eqn:Ev; [apply VhChar; exact Ev|].
  destruct (is 13 b) eqn:E13.
  { apply is_eq in E13. subst b. destruct r as [|b2 r2]; [apply VhPart; right; left; reflexivity|].
    destruct (is 10 b2) eqn:E10; [|apply VhErr; exact E10]. apply is_eq in E10. subst b2.
    apply (After [13; 10]%N). right. reflexivity. }
  destruct (is 10 b) eqn:E10; [|apply VhBad; assumption]. apply is_eq in E10. subst b.
  apply (After [10]%N). left. reflexivity.
Qed.

Lemma rvl_part voff racc off l : vpart l -> ref_value_lines hc voff racc off l = RPart.
Proof. intros [->|[->|[Hf [->| ->]]]]; cbn [ref_value_lines]; rewrite ?Hf; reflexivity. Qed.
Lemma rvl_err voff racc off b2 r2 : is 10 b2 = false ->
  ref_value_lines hc voff racc off (13%N :: b2 :: r2) = RErr HeaderValue.
Proof. intros H10. cbn [ref_value_lines]. rewrite H10. reflexivity. Qed.
Lemma rvl_char voff racc off b r : value_char b = true ->
  ref_value_lines hc voff racc off (b :: r) = ref_value_lines hc voff (b :: racc) (S off) r.
Proof. intros Hv. cbn [ref_value_lines]. rewrite Hv. reflexivity. Qed.
Lemma rvl_stop voff racc off e r : is_eol e -> vstop r ->
  ref_value_lines hc voff racc off (e ++ r) = ROk (vtrim voff racc) (length e + off) r.
Proof.
  intros He Hst. destruct He as [->| ->]; cbn.
  all: destruct Hst as [->|[b3 [r3 [-> Hw]]]]; [reflexivity|].
  all: rewrite Hw; destruct fold; reflexivity.
Qed.
Lemma rvl_fold voff racc off e b r : is_eol e -> fold = true -> ws b = true ->
  ref_value_lines hc voff racc off (e ++ b :: r) =
  ref_value_lines hc voff (rev e ++ racc) (length e + off) (b :: r).
Proof. intros [->| ->] Hf Hw; cbn [ref_value_lines app]; cbn; rewrite Hf, Hw; reflexivity. Qed.
Lemma rvl_bad voff racc off b r : value_char b = false -> is 13 b = false -> is 10 b = false ->
  ref_value_lines hc voff racc off (b :: r) = vinvalid off (b :: r).
Proof. intros Hv H13 H10. cbn [ref_value_lines]. rewrite Hv, H13, H10. reflexivity. Qed.

Lemma ref_value_lines_ind voff (Q : list N -> nat -> list N -> rres sl -> Prop) :
  (forall racc off l, vpart l -> Q racc off l RPart) ->
  (forall racc off b2 r2, is 10 b2 = false -> Q racc off (13%N :: b2 :: r2) (RErr HeaderValue)) ->
  (forall racc off b r x, value_char b = true -> Q (b :: racc) (S off) r x -> Q racc off (b :: r) x) ->
  (forall racc off e r, is_eol e -> vstop r ->
      Q racc off (e ++ r) (ROk (vtrim voff racc) (length e + off) r)) ->
  (forall racc off e b r x, is_eol e -> fold = true -> ws b = true ->
      Q (rev e ++ racc) (length e + off) (b :: r) x -> Q racc off (e ++ b :: r) x) ->
  (forall racc off b r, value_char b = false -> is 13 b = false -> is 10 b = false ->
      Q racc off (b :: r) (vinvalid off (b :: r))) ->
  forall racc off l, Q racc off l (ref_value_lines hc voff racc off l).
Proof.
  intros Hp He Hc Hs Hf Hb racc off l. revert racc off.
  induction l as [l IH] using (induction_ltof1 _ (@length N)). unfold ltof in IH. intros racc off.
  destruct (vhead_of l) as [l Hl|b2 r2 H10|b r Ev|e r He' Hst|e b r He' Hfo Hw|b r Ev H13 H10].
  - rewrite rvl_part by exact Hl. apply Hp, Hl.
  - rewrite rvl_err by exact H10. apply He, H10.
  - rewrite rvl_char by exact Ev. apply Hc; [exact Ev|]. apply IH. cbn [length]. lia.
  - rewrite rvl_stop by assumption. apply Hs; assumption.
  - rewrite rvl_fold by assumption. apply Hf; try assumption. apply IH.
    destruct He' as [->| ->]; cbn [length app]; lia.
  - rewrite rvl_bad by assumption. apply Hb; assumption.
Qed.

Lemma not_value_not_ws b : value_char b = false -> ws b = false.
Proof.
  intros Hv. destruct (ws b) eqn:Ew; [|reflexivity].
  destruct (ws_inv b Ew) as [->| ->]; discriminate Hv.
Qed.

Lemma rvs_part off l : vpart l -> ref_value_start hc off l = RPart.
Proof. intros [->|[->|[Hf [->| ->]]]]; cbn [ref_value_start]; rewrite ?Hf; reflexivity. Qed.
Lemma rvs_err off b2 r2 : is 10 b2 = false -> ref_value_start hc off (13%N :: b2 :: r2) = RErr HeaderValue.
Proof. intros H10. cbn [ref_value_start]. rewrite H10. reflexivity. Qed.
Lemma rvs_ws off b r : ws b = true -> ref_value_start hc off (b :: r) = ref_value_start hc (S off) r.
Proof. intros Hw. cbn [ref_value_start]. rewrite Hw. reflexivity. Qed.
Lemma rvs_stop off e r : is_eol e -> vstop r ->
  ref_value_start hc off (e ++ r) = ROk (Sub off []) (length e + off) r.
Proof.
  intros He Hst. destruct He as [->| ->]; cbn.
  all: destruct Hst as [->|[b3 [r3 [-> Hw]]]]; [reflexivity|].
  all: rewrite Hw; destruct fold; reflexivity.
Qed.
Lemma rvs_fold off e b r : is_eol e -> fold = true -> ws b = true ->
  ref_value_start hc off (e ++ b :: r) = ref_value_start hc (length e + off) (b :: r).
Proof. intros [->| ->] Hf Hw; cbn [ref_value_start app]; cbn; rewrite Hf, Hw; reflexivity. Qed.
Lemma rvs_bad off b r : value_char b = false -> is 13 b = false -> is 10 b = false ->
  ref_value_start hc off (b :: r) = vinvalid off (b :: r).
Proof.
  intros Hv H13 H10. cbn [ref_value_start]. rewrite (not_value_not_ws b Hv), Hv, H13, H10. reflexivity.
Qed.
Lemma rvs_value off b r : value_char b = true -> ws b = false ->
  ref_value_start hc off (b :: r) = ref_value_lines hc off [] off (b :: r).
Proof. intros Hv Hw. cbn [ref_value_start]. rewrite Hw, Hv. reflexivity. Qed.

Lemma ref_value_start_ind (Q : nat -> list N -> rres sl -> Prop) :
  (forall off l, vpart l -> Q off l RPart) ->
  (forall off b2 r2, is 10 b2 = false -> Q off (13%N :: b2 :: r2) (RErr HeaderValue)) ->
  (forall off b r x, ws b = true -> Q (S off) r x -> Q off (b :: r) x) ->
  (forall off b r, value_char b = true -> ws b = false ->
      Q off (b :: r) (ref_value_lines hc off [] off (b :: r))) ->
  (forall off e r, is_eol e -> vstop r -> Q off (e ++ r) (ROk (Sub off []) (length e + off) r)) ->
  (forall off e b r x, is_eol e -> fold = true -> ws b = true ->
      Q (length e + off) (b :: r) x -> Q off (e ++ b :: r) x) ->
  (forall off b r, value_char b = false -> is 13 b = false -> is 10 b = false ->
      Q off (b :: r) (vinvalid off (b :: r))) ->
  forall off l, Q off l (ref_value_start hc off l).
Proof.
  intros Hp He Hw Hv Hs Hf Hb off l. revert off.
  induction l as [l IH] using (induction_ltof1 _ (@length N)). unfold ltof in IH. intros off.
  destruct (vhead_of l) as [l Hl|b2 r2 H10|b r Ev|e r He' Hst|e b r He' Hfo Hw'|b r Ev H13 H10].
  - rewrite rvs_part by exact Hl. apply Hp, Hl.
  - rewrite rvs_err by exact H10. apply He, H10.
  - destruct (ws b) eqn:Ew.
    + rewrite rvs_ws by exact Ew. apply Hw; [exact Ew|]. apply IH. cbn [length]. lia.
    + rewrite rvs_value by assumption. apply Hv; assumption.
  - rewrite rvs_stop by assumption. apply Hs; assumption.
  - rewrite rvs_fold by assumption. apply Hf; try assumption. apply IH.
    destruct He' as [->| ->]; cbn [length app]; lia.
  - rewrite rvs_bad by assumption. apply Hb; assumption.
Qed.

(* One header line: a line end, or else a single case analysis in which the two ways of reaching
   the colon (whitespace after the name allowed or not) are merged. *)
Lemma ref_header_line_eq first off l :
  ref_header_line hc first off l =
  on_eol off l (ROk LEnd) (RErr NewLine)
    (match l with [] => RPart | b :: _ =>
      if negb (tchar b) then
        if allow_space_before_first_header_name hc && first && ws b then
          let (w, r') := span ws l in ROk LSkip (length w + off) r'
        else ref_invalid ign HeaderName off l
      else
        let (name, r1) := span tchar l in
        let o1 := length name + off in
        let (w, r3) := if allow_spaces_after_header_name hc then span ws r1 else ([], r1) in
        match r3 with
        | [] => RPart
        | c :: r4 => if is 58 c then ref_value hc (Sub off name) (S (length w + o1)) r4
                     else ref_invalid ign HeaderName (length w + o1) r3
        end
     end).
Proof.
  unfold ref_header_line, on_eol, eol_at. destruct l as [|b r]; [reflexivity|].
  destruct (is 13 b); [destruct r as [|b2 r2]; [reflexivity|destruct (is 10 b2); reflexivity]|].
  destruct (is 10 b); [reflexivity|]. destruct (negb (tchar b)); [reflexivity|].
  destruct (span tchar (b :: r)) as [name r1]. destruct r1 as [|c r2].
  { destruct (allow_spaces_after_header_name hc); reflexivity. }
  destruct (allow_spaces_after_header_name hc); cbn [andb].
  - cbn [span]. destruct (ws c) eqn:Ew.
    + destruct (is 58 c) eqn:E58; [apply is_eq in E58; subst c; discriminate|].
      destruct (span ws r2) as [w' r3']. reflexivity.
    + cbn [length Nat.add]. destruct (is 58 c); reflexivity.
  - cbn [length Nat.add]. destruct (is 58 c); reflexivity.
Qed.

(* The same by cases, for properties that do not need to know how the name and the whitespace were
   found. *)
Lemma ref_header_line_cases first off l (Q : rres rline -> Prop) :
  Q RPart -> Q (RErr NewLine) ->
  (forall o r, eol_at off l = EolOk o r -> Q (ROk LEnd o r)) ->
  (forall w r, l = w ++ r -> w <> [] -> Q (ROk LSkip (length w + off) r)) ->
  (forall pre r, l = pre ++ r -> Q (ref_invalid ign HeaderName (length pre + off) r)) ->
  (forall name w r, l = name ++ w ++ 58%N :: r -> name <> [] -> forallb tchar name = true ->
      Q (ref_value hc (Sub off name) (S (length w + (length name + off))) r)) ->
  Q (ref_header_line hc first off l).
Proof.
  intros Hp Hn Hend Hskip Hinv Hval. rewrite ref_header_line_eq. unfold on_eol.
  destruct (eol_at off l) as [o r| | |] eqn:Ee; [apply Hend; reflexivity|exact Hp|exact Hn|]. clear Ee Hend.
  destruct l as [|b l']; [exact Hp|]. destruct (tchar b) eqn:Et; cbn [negb].
  2:{ destruct (_ && _ && ws b) eqn:Esp; [|exact (Hinv [] (b :: l') eq_refl)].
      apply andb_prop in Esp as [_ Ews]. destruct (span ws (b :: l')) as [w r'] eqn:Es.
      pose proof (span_head _ _ _ _ _ Es Ews) as Hw. apply span_eq in Es as [Hl _].
      apply Hskip; [exact Hl|exact Hw]. }
  destruct (span tchar (b :: l')) as [name r1] eqn:Es.
  pose proof (span_head _ _ _ _ _ Es Et) as Hne. apply span_eq in Es as [Hl Hf].
  destruct (if allow_spaces_after_header_name hc then span ws r1 else ([], r1)) as [w r3] eqn:Ew.
  apply opt_span_eq in Ew as [-> _]. destruct r3 as [|c r4]; [exact Hp|].
  destruct (is 58 c) eqn:E58.
  - apply is_eq in E58. subst c. apply Hval; [exact Hl|exact Hne|exact Hf].
  - replace (length w + (length name + off)) with (length (name ++ w) + off) by (rewrite app_length; lia).
    apply Hinv. rewrite <- app_assoc. exact Hl.
Qed.

Lemma ref_value_ok name off l x o r : ref_value hc name off l = ROk x o r -> x <> LEnd.
Proof.
  unfold ref_value. destruct (ref_value_start hc off l) as [v o' r'| |]; cbn [rbind]; try discriminate.
  intros [= <- _ _]. destruct (dropped v); discriminate.
Qed.

Lemma ref_header_line_ok first off l x o r : ref_header_line hc first off l = ROk x o r ->
  (x = LEnd /\ exists el, is_eol el /\ l = el ++ r /\ o = length el + off) \/
  (x <> LEnd /\ eol_at off l = EolNone).
Proof.
  rewrite ref_header_line_eq. unfold on_eol. destruct (eol_at off l) as [o' r'| | |] eqn:Ee; try discriminate.
  { intros [= <- <- <-]. left. split; [reflexivity|exact (eol_at_ok _ _ _ _ Ee)]. }
  intros H. right. split; [|reflexivity]. destruct l as [|b l']; [discriminate|].
  destruct (negb (tchar b)).
  { destruct (_ && _ && _).
    - destruct (span ws (b :: l')). injection H as <- _ _. discriminate.
    - apply ref_invalid_ok in H as (_ & -> & _). discriminate. }
  destruct (span tchar (b :: l')) as [name r1].
  destruct (if allow_spaces_after_header_name hc then span ws r1 else ([], r1)) as [w [|c r4]]; [discriminate|].
  destruct (is 58 c).
  - exact (ref_value_ok _ _ _ _ _ _ H).
  - apply ref_invalid_ok in H as (_ & -> & _). discriminate.
Qed.

Lemma ref_header_line_part_head first off l : ref_header_line hc first off l = RPart ->
  l = [] \/ l = [13%N] \/ eol_at off l = EolNone.
Proof.
  rewrite ref_header_line_eq. unfold on_eol. destruct (eol_at off l) eqn:Ee; try discriminate; intros _.
  - destruct (eol_at_part _ _ Ee) as [->| ->]; auto.
  - auto.
Qed.

Definition block_step (cap : nat) (hs : list (sl * sl))
    (next : list (sl * sl) -> nat -> list N -> status * list (sl * sl)) (x : rres rline) : status * list (sl * sl) :=
  match x with
  | ROk LEnd o _ => (Complete o, hs)
  | ROk LSkip o r => next hs o r
  | ROk (LHeader n v) o r =>
      if Nat.ltb (length hs) cap then next (hs ++ [(n, v)]) o r else (Error TooManyHeaders, hs)
  | RPart => (Partial, hs)
  | RErr e => (Error e, hs)
  end.
Lemma ref_header_block_S f cap hs off l :
  ref_header_block hc (S f) cap hs off l =
  block_step cap hs (ref_header_block hc f cap) (ref_header_line hc (null hs) off l).
Proof. reflexivity. Qed.

Lemma ref_header_block_ind cap
    (Q : nat -> list (sl * sl) -> nat -> list N -> status * list (sl * sl) -> Prop) :
  (forall hs off l, Q 0 hs off l (Faulted OutOfFuel, hs)) ->
  (forall f hs off l o r, ref_header_line hc (null hs) off l = ROk LEnd o r ->
      Q (S f) hs off l (Complete o, hs)) ->
  (forall f hs off l, ref_header_line hc (null hs) off l = RPart -> Q (S f) hs off l (Partial, hs)) ->
  (forall f hs off l e, ref_header_line hc (null hs) off l = RErr e -> Q (S f) hs off l (Error e, hs)) ->
  (forall f hs off l n v o r, ref_header_line hc (null hs) off l = ROk (LHeader n v) o r ->
      cap <= length hs -> Q (S f) hs off l (Error TooManyHeaders, hs)) ->
  (forall f hs off l o r res, ref_header_line hc (null hs) off l = ROk LSkip o r ->
      Q f hs o r res -> Q (S f) hs off l res) ->
  (forall f hs off l n v o r res, ref_header_line hc (null hs) off l = ROk (LHeader n v) o r ->
      length hs < cap -> Q f (hs ++ [(n, v)]) o r res -> Q (S f) hs off l res) ->
  forall fuel hs off l, Q fuel hs off l (ref_header_block hc fuel cap hs off l).
Proof.
  intros Hfu Hend Hpart Herr Hfull Hskip Hhdr fuel.
  induction fuel as [|f IH]; intros hs off l; [apply Hfu|]. rewrite ref_header_block_S.
  destruct (ref_header_line hc (null hs) off l) as [[| |n v] o r| |e] eqn:El; cbn [block_step].
  - apply Hend with r. exact El.
  - apply Hskip with o r; [exact El|apply IH].
  - destruct (Nat.ltb_spec (length hs) cap) as [Hlt|Hge].
    + apply Hhdr with n v o r; [exact El|exact Hlt|apply IH].
    + apply Hfull with n v o r; [exact El|exact Hge].
  - apply Hpart, El.
  - apply Herr, El.
Qed.
End Headers.

(* A start line is three stages that each yield a field, then its end; a field is reported as soon
   as its stage has succeeded. *)
Definition val {A} (r : rres A) : option A := match r with ROk a _ _ => Some a | _ => None end.

Definition chain3 {A B C S} (mk : option A -> option B -> option C -> S) (r1 : rres A)
    (g2 : A -> nat -> list N -> rres B) (g3 : B -> nat -> list N -> rres C)
    (g4 : C -> nat -> list N -> rres unit) : S * rres unit :=
  let r2 := rbind r1 g2 in let r3 := rbind r2 g3 in (mk (val r1) (val r2) (val r3), rbind r3 g4).

Lemma chain3_ok {A B C S} (mk : option A -> option B -> option C -> S) r1 g2 g3 g4 u o r :
  snd (chain3 mk r1 g2 g3 g4) = ROk u o r ->
  exists a b c, fst (chain3 mk r1 g2 g3 g4) = mk (Some a) (Some b) (Some c).
Proof.
  unfold chain3. cbn [fst snd]. destruct r1 as [a o1 l1| |]; try discriminate. cbn [rbind].
  destruct (g2 a o1 l1) as [b o2 l2| |]; try discriminate. cbn [rbind].
  destruct (g3 b o2 l2) as [c o3 l3| |]; try discriminate. intros _. exists a, b, c. reflexivity.
Qed.

Lemma ref_request_line_chain ms l :
  ref_request_line ms l =
  chain3 Build_ref_start_req (rbind (ref_empty_lines 0 l) (fun _ o l => ref_method o l))
    (fun _ o l => rbind (ref_spaces ms o l) (fun _ o l => ref_target o l))
    (fun _ o l => rbind (ref_spaces ms o l) (fun _ o l => ref_version o l))
    (fun _ o l => ref_eol NewLine o l).
Proof.
  unfold ref_request_line, chain3.
  destruct (ref_empty_lines 0 l) as [u o1 l1| |e]; try reflexivity. cbn [rbind].
  destruct (ref_method o1 l1) as [m o2 l2| |e]; try reflexivity. cbn [rbind].
  destruct (rbind (ref_spaces ms o2 l2) _) as [p o3 l3| |e]; try reflexivity. cbn [rbind].
  destruct (rbind (ref_spaces ms o3 l3) _); reflexivity.
Qed.

Lemma ref_status_line_chain ms l :
  ref_status_line ms l =
  chain3 Build_ref_start_resp (rbind (ref_empty_lines 0 l) (fun _ o l => ref_version o l))
    (fun _ o l => rbind (rbind (ref_sp Version o l) (fun _ o l => ref_spaces ms o l)) (fun _ o l => ref_code o l))
    (fun _ o l => ref_after_code ms o l)
    (fun _ o l => ROk tt o l).
Proof.
  unfold ref_status_line, chain3.
  destruct (rbind (ref_empty_lines 0 l) _) as [v o1 l1| |e]; try reflexivity. cbn [rbind].
  destruct (rbind (rbind (ref_sp Version o1 l1) _) _) as [c o2 l2| |e]; try reflexivity. cbn [rbind].
  destruct (ref_after_code ms o2 l2); reflexivity.
Qed.

Lemma ref_request_line_snd ms l : snd (ref_request_line ms l) =
  rbind (rbind (rbind (rbind (ref_empty_lines 0 l) (fun _ o l => ref_method o l))
    (fun _ o l => rbind (ref_spaces ms o l) (fun _ o l => ref_target o l)))
    (fun _ o l => rbind (ref_spaces ms o l) (fun _ o l => ref_version o l)))
    (fun _ o l => ref_eol NewLine o l).
Proof. rewrite ref_request_line_chain. reflexivity. Qed.
Lemma ref_status_line_snd ms l : snd (ref_status_line ms l) =
  rbind (rbind (rbind (rbind (ref_empty_lines 0 l) (fun _ o l => ref_version o l))
    (fun _ o l => rbind (rbind (ref_sp Version o l) (fun _ o l => ref_spaces ms o l)) (fun _ o l => ref_code o l)))
    (fun _ o l => ref_after_code ms o l))
    (fun _ o l => ROk tt o l).
Proof. rewrite ref_status_line_chain. reflexivity. Qed.

Definition ref_tail (x : rres unit) (hc : hcfg) (cap : nat) : status * list (sl * sl) :=
  match x with
  | ROk _ o r => ref_headers hc cap o r
  | RPart => (Partial, [])
  | RErr e => (Error e, [])
  end.

Lemma ref_request_tail cf cap buf :
  let line := ref_request_line (allow_multiple_spaces_in_request_line_delimiters cf) buf in
  let t := ref_tail (snd line) (request_hcfg cf) cap in
  ref_request cf cap buf = Build_ref_req (fst t) (fst line) (snd t).
Proof.
  unfold ref_request. destruct (ref_request_line _ buf) as [st [u o r| |e]]; cbn [ref_tail fst snd];
    [destruct (ref_headers _ _ _ _)|..]; reflexivity.
Qed.
Lemma ref_response_tail cf cap buf :
  let line := ref_status_line (allow_multiple_spaces_in_response_status_delimiters cf) buf in
  let t := ref_tail (snd line) (response_hcfg cf) cap in
  ref_response cf cap buf = Build_ref_resp (fst t) (fst line) (snd t).
Proof.
  unfold ref_response. destruct (ref_status_line _ buf) as [st [u o r| |e]]; cbn [ref_tail fst snd];
    [destruct (ref_headers _ _ _ _)|..]; reflexivity.
Qed.
