(* Proofs/Hygiene.v -- C05: the fields the reference parsers hand back are class-clean. *)
From Coq Require Import List NArith Lia Bool.
From HV Require Import Cursor Model Api Spec Oracle.
From HV.Proofs Require Import RefInd.
Import ListNotations.

Lemma forallb_impl (p q : N -> bool) l :
  (forall b, p b = true -> q b = true) -> forallb p l = true -> forallb q l = true.
Proof. intros Hpq H. apply forallb_forall. intros b Hb. apply Hpq. exact (proj1 (forallb_forall p l) H b Hb). Qed.
Lemma forallb_rev p (l : list N) : forallb p (rev l) = forallb p l.
Proof.
  induction l as [|x r IH]; [reflexivity|]. cbn [rev forallb]. rewrite forallb_app, IH. cbn [forallb].
  rewrite andb_true_r. apply andb_comm.
Qed.
Lemma hd_error_app {A} (a b : list A) : a <> [] -> hd_error (a ++ b) = hd_error a.
Proof. destruct a; [congruence|reflexivity]. Qed.

Lemma tail_headers_Forall (P : sl * sl -> Prop) hc cap x :
  (forall off l, Forall P (snd (ref_headers hc cap off l))) -> Forall P (snd (ref_tail x hc cap)).
Proof. intros H. destruct x; [apply H|constructor|constructor]. Qed.

Definition method_ok (s : sl) : Prop := exists o m, s = Sub o m /\ m <> [] /\ forallb tchar m = true.
Definition path_ok (s : sl) : Prop :=
  exists o m, s = Sub o m /\ m <> [] /\ forallb uri_char m = true /\ utf8_valid m = true.
Definition reason_ok_sl (s : sl) : Prop := (exists o t, s = Sub o t /\ reason_ok t = true) \/ s = Ext [].
Definition opt_p {A} (P : A -> Prop) (o : option A) : Prop := match o with Some a => P a | None => True end.

(* `opt_p P (val x)`: what stage x yields, if anything, has P.  The fields of a start line are the
   `val`s of its stages, each run after the ones before it. *)
Lemma val_rbind {A B} (P : B -> Prop) (x : rres A) (g : A -> nat -> list N -> rres B) :
  (forall a o l, opt_p P (val (g a o l))) -> opt_p P (val (rbind x g)).
Proof. intros H. destruct x as [a o l| |]; [apply H|exact I|exact I]. Qed.

Lemma ref_method_class off l : opt_p method_ok (val (ref_method off l)).
Proof.
  unfold ref_method. pose proof (span_forallb tchar l) as Hf. destruct (span tchar l) as [m t]. cbn [fst] in Hf.
  destruct t as [|b r']; [exact I|]. destruct m as [|x m']; [exact I|]. cbn [null].
  destruct (is 32 b); [|exact I].
  exists off, (x :: m'). split; [reflexivity|split; [discriminate|exact Hf]].
Qed.
Lemma ref_target_class off l : opt_p path_ok (val (ref_target off l)).
Proof.
  unfold ref_target. pose proof (span_forallb uri_char l) as Hf. destruct (span uri_char l) as [m t]. cbn [fst] in Hf.
  destruct t as [|b r']; [exact I|]. destruct (negb (is 32 b)); [exact I|].
  destruct m as [|x m']; [exact I|]. cbn [null].
  destruct (utf8_valid (x :: m')) eqn:Eu; cbn [negb]; [|exact I].
  exists off, (x :: m'). split; [reflexivity|split; [discriminate|split; [exact Hf|exact Eu]]].
Qed.
Lemma ref_version_class off l : opt_p (fun v => v = 0%N \/ v = 1%N) (val (ref_version off l)).
Proof.
  unfold ref_version. destruct (take 8 l); [|destruct (is_prefix l HTTP1dot); exact I].
  destruct (list_eqb _ _); [left; reflexivity|]. destruct (list_eqb _ _); [right; reflexivity|exact I].
Qed.
Lemma ref_code_class off l : opt_p (fun c => (c < 1000)%N) (val (ref_code off l)).
Proof.
  unfold ref_code. destruct l as [|a r1]; [exact I|]. destruct (digit a) eqn:Ea; cbn [negb]; [|exact I].
  destruct r1 as [|b r2]; [exact I|]. destruct (digit b) eqn:Eb; cbn [negb]; [|exact I].
  destruct r2 as [|d r3]; [exact I|]. destruct (digit d) eqn:Ed; cbn [negb]; [|exact I].
  cbn [val opt_p]. unfold digit, in_range in *. lia.
Qed.

Lemma ref_reason_class off l : opt_p reason_ok_sl (val (ref_reason off l)).
Proof.
  unfold ref_reason. pose proof (span_forallb reason_char l) as Hf. destruct (span reason_char l) as [t rr]. cbn [fst] in Hf.
  destruct (ref_eol Status (length t + off) rr); try exact I.
  cbn [val opt_p]. destruct (forallb (fun b => N.ltb b 128) t) eqn:E; [|right; reflexivity].
  left. exists off, t. split; [reflexivity|]. apply forallb_forall. intros b Hb.
  pose proof (proj1 (forallb_forall _ t) Hf b Hb) as H1. pose proof (proj1 (forallb_forall _ t) E b Hb) as H2.
  cbv beta in H2. unfold reason_char, in_range in *. clear - H1 H2. lia.
Qed.
Lemma ref_after_code_class ms off l : opt_p reason_ok_sl (val (ref_after_code ms off l)).
Proof.
  unfold ref_after_code. destruct l as [|b l']; [exact I|].
  destruct (is 32 b); [apply val_rbind; intros; apply ref_reason_class|].
  destruct (is 13 b || is 10 b); [|exact I].
  destruct (ref_eol Status off (b :: l')); try exact I. right. reflexivity.
Qed.

Lemma ref_request_line_class ms buf :
  let st := fst (ref_request_line ms buf) in
  opt_p method_ok (rs_method st) /\ opt_p path_ok (rs_path st) /\
  opt_p (fun v => v = 0%N \/ v = 1%N) (rs_version st).
Proof.
  cbn zeta. rewrite ref_request_line_chain. unfold chain3. cbn [fst rs_method rs_path rs_version].
  split; [|split].
  - apply val_rbind. intros. apply ref_method_class.
  - apply val_rbind. intros. apply val_rbind. intros. apply ref_target_class.
  - apply val_rbind. intros. apply val_rbind. intros. apply ref_version_class.
Qed.

Lemma ref_status_line_class ms buf :
  let st := fst (ref_status_line ms buf) in
  opt_p (fun v => v = 0%N \/ v = 1%N) (rs_pversion st) /\ opt_p (fun c => (c < 1000)%N) (rs_code st) /\
  opt_p reason_ok_sl (rs_reason st).
Proof.
  cbn zeta. rewrite ref_status_line_chain. unfold chain3. cbn [fst rs_pversion rs_code rs_reason].
  split; [|split].
  - apply val_rbind. intros. apply ref_version_class.
  - apply val_rbind. intros. apply val_rbind. intros. apply ref_code_class.
  - apply val_rbind. intros. apply ref_after_code_class.
Qed.

(* One pass over a header block for any property G of stored values: if every value the value stage
   returns and the line keeps has it, so has every stored header, and its name is a token. *)
Section ValuePass.
Variable hc : hcfg.
Variable G : sl -> Prop.
Hypothesis start_G : forall off l v o r, ref_value_start hc off l = ROk v o r -> dropped v = false -> G v.

Definition stored (h : sl * sl) : Prop :=
  (exists o m, fst h = Sub o m /\ m <> [] /\ forallb tchar m = true) /\ G (snd h).

Lemma ref_header_line_G first off l n v o r :
  ref_header_line hc first off l = ROk (LHeader n v) o r -> stored (n, v).
Proof.
  apply (ref_header_line_cases hc first off l (fun x => x = ROk (LHeader n v) o r -> stored (n, v)));
    try discriminate.
  - intros pre r' _ H. apply ref_invalid_ok in H as (_ & [=] & _).
  - intros name w r' _ Hne Hf. unfold ref_value. intros H. apply rbind_inv in H as (v' & o' & r'' & Ev & H).
    destruct (dropped v') eqn:Ed; [discriminate|]. injection H as <- <- _ _.
    split; [exists off, name; auto|exact (start_G _ _ _ _ _ Ev Ed)].
Qed.

Lemma ref_header_block_G fuel cap hs off l :
  Forall stored hs -> Forall stored (snd (ref_header_block hc fuel cap hs off l)).
Proof.
  revert fuel hs off l.
  apply (ref_header_block_ind hc cap (fun _ hs _ _ res => Forall stored hs -> Forall stored (snd res))); cbn [snd].
  1-5: intros; assumption.
  - intros _ hs off l o r res _ IH Hhs. exact (IH Hhs).
  - intros _ hs off l n v o r res El _ IH Hhs. apply IH, Forall_app. split; [exact Hhs|].
    constructor; [exact (ref_header_line_G _ _ _ _ _ _ _ El)|constructor].
Qed.

Lemma ref_headers_G cap off l : Forall stored (snd (ref_headers hc cap off l)).
Proof. apply ref_header_block_G. constructor. Qed.
End ValuePass.

Section Values.
Variable hc : hcfg.
Let fold := allow_obsolete_multiline_headers hc.

Definition vbyte (x : N) : bool := value_char x || (fold && (is 13 x || is 10 x)).

(* value as handed back: Sub voff bs with bs class-clean, not starting with SP/HTAB and not ending
   with SP / HTAB / CR / LF *)
Definition value_shape (s : sl) : Prop :=
  match s with
  | Sub _ bs =>
      forallb vbyte bs = true /\
      (bs <> [] -> exists b0, hd_error bs = Some b0 /\ ws b0 = false /\ is_trim (last bs 0%N) = false)
  | Ext e => e = [255%N]
  end.

(* The accumulator holds the value read so far, most recent byte first, so `rev racc ++ l` stays what it was
   when the value began: its first byte z is the first byte of whatever is handed back. *)
Lemma vtrim_shape voff racc l z :
  forallb vbyte racc = true -> hd_error (rev racc ++ l) = Some z -> ws z = false ->
  value_shape (vtrim voff racc).
Proof.
  intros Hall Hz Hw. unfold vtrim. rewrite rev'_rev. destruct (drop_while_suffix is_trim racc) as [a Ha].
  remember (drop_while is_trim racc) as d eqn:Ed. cbn [value_shape]. split.
  - rewrite forallb_rev. rewrite Ha, forallb_app in Hall. apply andb_prop in Hall. apply Hall.
  - intros Hne. exists z. split; [|split; [exact Hw|]].
    + rewrite Ha, rev_app_distr, <- app_assoc, hd_error_app in Hz by exact Hne. exact Hz.
    + destruct d as [|x d']; [destruct (Hne eq_refl)|]. cbn [rev]. rewrite last_last.
      exact (drop_while_head is_trim racc x d' (eq_sym Ed)).
Qed.

Lemma ref_value_lines_shape voff z racc off l s o r :
  forallb vbyte racc = true -> hd_error (rev racc ++ l) = Some z -> ws z = false ->
  ref_value_lines hc voff racc off l = ROk s o r -> value_shape s.
Proof.
  intros Hall Hz Hw H. revert s o r H Hall Hz. revert racc off l.
  apply (ref_value_lines_ind hc voff (fun racc _ l x => forall s o r, x = ROk s o r ->
           forallb vbyte racc = true -> hd_error (rev racc ++ l) = Some z -> value_shape s)).
  - discriminate.
  - discriminate.
  - (* value byte *)
    intros racc off b r x Ev IH s o r' E Hall Hz. apply (IH s o r' E).
    + cbn [forallb]. unfold vbyte at 1. rewrite Ev. exact Hall.
    + cbn [rev]. rewrite <- app_assoc. exact Hz.
  - intros racc off e r _ _ s o r' [= <- _ _] Hall Hz. exact (vtrim_shape voff racc (e ++ r) z Hall Hz Hw).
  - (* fold *)
    intros racc off e b r x He Hf _ IH s o r' E Hall Hz. apply (IH s o r' E).
    + rewrite forallb_app, forallb_rev, Hall, andb_true_r.
      destruct He as [->| ->]; cbn [forallb]; unfold vbyte, fold; rewrite Hf; reflexivity.
    + rewrite rev_app_distr, rev_involutive, <- app_assoc. exact Hz.
  - intros racc off b r _ _ _ s o r' E _ _. apply vinvalid_ok in E. subst s. reflexivity.
Qed.

Lemma ref_value_start_shape off l s o r : ref_value_start hc off l = ROk s o r -> value_shape s.
Proof.
  revert s o r. revert off l.
  apply (ref_value_start_ind hc (fun _ _ x => forall s o r, x = ROk s o r -> value_shape s)).
  - discriminate.
  - discriminate.
  - intros off b r x _ IH. exact IH.
  - intros off b r _ Hw s o r' E. exact (ref_value_lines_shape off b [] off (b :: r) s o r' eq_refl eq_refl Hw E).
  - intros off e r _ _ s o r' [= <- _ _]. split; [reflexivity|congruence].
  - intros off e b r x _ _ _ IH. exact IH.
  - intros off b r _ _ _ s o r' E. apply vinvalid_ok in E. subst s. reflexivity.
Qed.

Definition header_shape (x : rline) : Prop :=
  match x with
  | LHeader n v =>
      (exists o m, n = Sub o m /\ m <> [] /\ forallb tchar m = true) /\
      match v with Sub _ bs => value_shape v | Ext _ => False end
  | _ => True
  end.

Lemma ref_headers_shape cap off l :
  Forall (fun h => header_shape (LHeader (fst h) (snd h))) (snd (ref_headers hc cap off l)).
Proof.
  apply (ref_headers_G hc (fun v => match v with Sub _ _ => value_shape v | Ext _ => False end)).
  intros off' l' v o r H Hd. apply ref_value_start_shape in H. destruct v as [vo bs|e]; [exact H|].
  cbn [value_shape] in H. subst e. discriminate Hd.
Qed.
End Values.

Theorem ref_request_fields_class cf cap buf :
  let r := ref_request cf cap buf in
  opt_p method_ok (rs_method (rq_start r)) /\ opt_p path_ok (rs_path (rq_start r)) /\
  opt_p (fun v => v = 0%N \/ v = 1%N) (rs_version (rq_start r)) /\
  Forall (fun h => header_shape (request_hcfg cf) (LHeader (fst h) (snd h))) (rq_headers r).
Proof.
  cbn zeta. rewrite ref_request_tail. cbn [rq_start rq_headers].
  destruct (ref_request_line_class (allow_multiple_spaces_in_request_line_delimiters cf) buf) as (Hm & Hp & Hv).
  repeat apply conj; [exact Hm|exact Hp|exact Hv|].
  apply tail_headers_Forall. intros off l. apply ref_headers_shape.
Qed.

Theorem ref_response_fields_class cf cap buf :
  let r := ref_response cf cap buf in
  opt_p (fun v => v = 0%N \/ v = 1%N) (rs_pversion (rp_start r)) /\
  opt_p (fun c => (c < 1000)%N) (rs_code (rp_start r)) /\
  opt_p reason_ok_sl (rs_reason (rp_start r)) /\
  Forall (fun h => header_shape (response_hcfg cf) (LHeader (fst h) (snd h))) (rp_headers r).
Proof.
  cbn zeta. rewrite ref_response_tail. cbn [rp_start rp_headers].
  destruct (ref_status_line_class (allow_multiple_spaces_in_response_status_delimiters cf) buf) as (Hv & Hc & Hr).
  repeat apply conj; [exact Hv|exact Hc|exact Hr|].
  apply tail_headers_Forall. intros off l. apply ref_headers_shape.
Qed.

(* every &str handed out is valid UTF-8: ASCII text is *)
Lemma ascii_utf8 l : forallb (fun b => N.leb b 127) l = true -> utf8_valid l = true.
Proof.
  induction l as [|b r IH]; [reflexivity|]. cbn [forallb]. intros H. apply andb_prop in H as [Hb Hr].
  cbn [utf8_valid]. rewrite Hb. apply IH. exact Hr.
Qed.
Lemma tchar_ascii l : forallb tchar l = true -> forallb (fun b => N.leb b 127) l = true.
Proof. apply forallb_impl. intros b Hb. unfold tchar, alpha, digit, in_range, is in Hb. lia. Qed.
Lemma reason_ascii l : reason_ok l = true -> forallb (fun b => N.leb b 127) l = true.
Proof. apply forallb_impl. intros b Hb. unfold in_range, is in Hb. lia. Qed.
