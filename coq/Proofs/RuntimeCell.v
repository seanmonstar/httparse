(* Proofs/RuntimeCell.v -- the cached runtime backend id of src/simd/runtime.rs as a
   transition system: any number of threads, each executing
       feature = load(Relaxed); if feature == 0 { feature = detect(); store(feature, Relaxed) }
   A relaxed load may return any value of the cell's modification order that is not older
   than what the thread has already observed (per-location coherence); detect() returns a
   fixed d <> 0 (the CPU does not change).  Every thread ends with feature = d, under every
   interleaving. *)
From Coq Require Import List NArith.
Import ListNotations.

Section Cell.
Variable d : N.

Inductive pc := Start | Loaded (v : N) | Detected | Finished (feature : N).

Record thread := mkthread { t_pc : pc; t_seen : nat }.   (* index into the modification order *)
Record state := mkstate { mo : list N;                   (* modification order, oldest first *)
                          threads : list thread }.

Definition init (n : nat) : state := mkstate [0%N] (repeat (mkthread Start 0) n).

Fixpoint set_nth {A} (i : nat) (x : A) (l : list A) : list A :=
  match l, i with
  | [], _ => []
  | _ :: r, O => x :: r
  | y :: r, S j => y :: set_nth j x r
  end.

Inductive step : state -> state -> Prop :=
| SLoad : forall s i t j v,
    nth_error (threads s) i = Some t -> t_pc t = Start ->
    t_seen t <= j -> nth_error (mo s) j = Some v ->
    step s (mkstate (mo s) (set_nth i (mkthread (Loaded v) j) (threads s)))
| SBranch0 : forall s i t,
    nth_error (threads s) i = Some t -> t_pc t = Loaded 0%N ->
    step s (mkstate (mo s) (set_nth i (mkthread Detected (t_seen t)) (threads s)))
| SBranchN : forall s i t v,
    nth_error (threads s) i = Some t -> t_pc t = Loaded v -> v <> 0%N ->
    step s (mkstate (mo s) (set_nth i (mkthread (Finished v) (t_seen t)) (threads s)))
| SStore : forall s i t,
    nth_error (threads s) i = Some t -> t_pc t = Detected ->
    step s (mkstate (mo s ++ [d]) (set_nth i (mkthread (Finished d) (length (mo s))) (threads s))).

Inductive reachable (n : nat) : state -> Prop :=
| RInit : reachable n (init n)
| RStep : forall s s', reachable n s -> step s s' -> reachable n s'.

Definition val_ok (v : N) : Prop := v = 0%N \/ v = d.
Definition pc_ok (p : pc) : Prop :=
  match p with
  | Start | Detected => True
  | Loaded v => val_ok v
  | Finished v => v = d
  end.
Definition inv (s : state) : Prop :=
  Forall val_ok (mo s) /\ Forall (fun t => pc_ok (t_pc t)) (threads s).

Lemma Forall_set_nth {A} (P : A -> Prop) i x l : Forall P l -> P x -> Forall P (set_nth i x l).
Proof.
  revert i; induction l as [|y r IH]; intros i Hl Hx; [destruct i; constructor|].
  inversion Hl; subst. destruct i; cbn; constructor; auto.
Qed.
Lemma Forall_nth_error {A} (P : A -> Prop) l i x : Forall P l -> nth_error l i = Some x -> P x.
Proof. intros Hl Hn. exact (proj1 (Forall_forall P l) Hl x (nth_error_In l i Hn)). Qed.

Lemma inv_init n : inv (init n).
Proof.
  split; cbn.
  - constructor; [left; reflexivity|constructor].
  - apply Forall_forall. intros t Ht. apply repeat_spec in Ht. subst. exact I.
Qed.

Lemma inv_step s s' : inv s -> step s s' -> inv s'.
Proof.
  intros [Hm Ht] Hs.
  inversion Hs as [s0 i t j v Hn Hp Hj Hv | s0 i t Hn Hp | s0 i t v Hn Hp Hv | s0 i t Hn Hp]; subst; cbn; split; auto.
  - apply Forall_set_nth; auto. cbn. eapply Forall_nth_error; eauto.
  - apply Forall_set_nth; auto. exact I.
  - apply Forall_set_nth; auto. cbn.
    pose proof (Forall_nth_error _ _ _ _ Ht Hn) as Hq. cbn in Hq. rewrite Hp in Hq. cbn in Hq.
    destruct Hq as [Hq|Hq]; [contradiction|exact Hq].
  - apply Forall_app. split; auto. constructor; [right; reflexivity|constructor].
  - apply Forall_set_nth; auto. reflexivity.
Qed.

Theorem runtime_cell_safe : forall n s, reachable n s ->
  inv s /\
  forall i t v, nth_error (threads s) i = Some t -> t_pc t = Finished v -> v = d.
Proof.
  intros n s Hr.
  assert (Hi : inv s) by (induction Hr; [apply inv_init|eapply inv_step; eauto]).
  split; [exact Hi|]. intros i t v Hn Hp. destruct Hi as [_ Ht].
  pose proof (Forall_nth_error _ _ _ _ Ht Hn) as H. cbn in H. rewrite Hp in H. exact H.
Qed.
End Cell.
