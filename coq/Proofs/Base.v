(* Proofs/Base.v -- list facts about take / drop / shift / first_bad, and `advance` as a move of
   the cursor by `adv`. *)
From Coq Require Import List NArith ZArith Lia ZifyBool ZifyN ZifyNat.
From HV Require Import Cursor Scan.
Import ListNotations.

Definition bytes_ok (xs : list N) : Prop := Forall (fun b => (b < 256)%N) xs.

Lemma bytes_ok_app a b : bytes_ok (a ++ b) <-> bytes_ok a /\ bytes_ok b.
Proof. unfold bytes_ok. apply Forall_app. Qed.
Lemma bytes_ok_firstn n l : bytes_ok l -> bytes_ok (firstn n l).
Proof. intros H. rewrite <- (firstn_skipn n l) in H. apply bytes_ok_app in H. tauto. Qed.
Lemma bytes_ok_skipn n l : bytes_ok l -> bytes_ok (skipn n l).
Proof. intros H. rewrite <- (firstn_skipn n l) in H. apply bytes_ok_app in H. tauto. Qed.
Lemma bytes_ok_cons b l : bytes_ok (b :: l) <-> (b < 256)%N /\ bytes_ok l.
Proof. exact (Forall_cons_iff _ b l). Qed.

Lemma take_spec : forall n l,
  take n l = if Nat.leb n (length l) then Some (firstn n l) else None.
Proof.
  induction n as [|n IH]; intros l; [reflexivity|].
  destruct l as [|x r]; [reflexivity|]. cbn [take length firstn]. rewrite IH.
  change (Nat.leb (S n) (S (length r))) with (Nat.leb n (length r)).
  destruct (Nat.leb n (length r)); reflexivity.
Qed.
Lemma drop_spec : forall n l,
  drop n l = if Nat.leb n (length l) then Some (skipn n l) else None.
Proof.
  induction n as [|n IH]; intros l; [reflexivity|].
  destruct l as [|x r]; [reflexivity|]. cbn [drop length skipn]. rewrite IH. reflexivity.
Qed.
Lemma shift_spec : forall n tk l,
  shift n tk l = if Nat.leb n (length l) then Some (rev (firstn n l) ++ tk, skipn n l) else None.
Proof.
  induction n as [|n IH]; intros tk l; [reflexivity|].
  destruct l as [|x r]; [reflexivity|]. cbn [shift length skipn firstn rev]. rewrite IH.
  change (Nat.leb (S n) (S (length r))) with (Nat.leb n (length r)).
  destruct (Nat.leb n (length r)); [|reflexivity]. rewrite <- app_assoc. reflexivity.
Qed.

Definition adv (k : nat) (c : cur) : cur :=
  mkcur (pre c) (rev (firstn k (rest c)) ++ tokrev c) (skipn k (rest c)).

Lemma adv_0 c : adv 0 c = c.
Proof. destruct c; reflexivity. Qed.
Lemma firstn_add {A} : forall a b (l : list A),
  firstn (a + b) l = firstn a l ++ firstn b (skipn a l).
Proof.
  induction a as [|a IH]; intros b l; [reflexivity|].
  destruct l as [|x r]; [cbn; rewrite firstn_nil; reflexivity|].
  cbn [Nat.add firstn skipn app]. f_equal. apply IH.
Qed.
Lemma skipn_add {A} : forall a b (l : list A), skipn b (skipn a l) = skipn (a + b) l.
Proof.
  induction a as [|a IH]; intros b l; [reflexivity|].
  destruct l as [|x r]; [cbn; destruct b; reflexivity|]. cbn [Nat.add skipn]. apply IH.
Qed.
Lemma adv_adv a b c : adv b (adv a c) = adv (a + b) c.
Proof.
  unfold adv; cbn [pre tokrev rest]. f_equal.
  - rewrite app_assoc. f_equal. rewrite <- rev_app_distr. f_equal.
    symmetry. apply firstn_add.
  - apply skipn_add.
Qed.

Lemma advance_adv n c : n <= length (rest c) -> advance n c = Done tt (adv n c).
Proof.
  intros H. unfold advance. rewrite shift_spec.
  destruct (Nat.leb_spec n (length (rest c))); [reflexivity|lia].
Qed.
Lemma advance_oob n c : length (rest c) < n -> advance n c = Fault AdvanceOOB.
Proof.
  intros H. unfold advance. rewrite shift_spec.
  destruct (Nat.leb_spec n (length (rest c))); [lia|reflexivity].
Qed.

Lemma first_bad_le p l : first_bad p l <= length l.
Proof. induction l as [|b r IH]; cbn [first_bad length]; [lia|]. destruct (p b); lia. Qed.
Lemma first_bad_app p a b :
  first_bad p (a ++ b) = if Nat.eqb (first_bad p a) (length a) then length a + first_bad p b else first_bad p a.
Proof.
  induction a as [|x r IH]; [reflexivity|]. cbn [first_bad length app].
  destruct (p x); [|reflexivity]. rewrite IH.
  change (Nat.eqb (S (first_bad p r)) (S (length r))) with (Nat.eqb (first_bad p r) (length r)).
  destruct (Nat.eqb _ _); reflexivity.
Qed.
Lemma first_bad_all p l : first_bad p l = length l <-> forallb p l = true.
Proof.
  induction l as [|x r IH]; cbn [first_bad length forallb]; [tauto|].
  destruct (p x); cbn [andb]; [|split; [lia|discriminate]].
  rewrite <- IH. lia.
Qed.
Lemma first_bad_nth p l : first_bad p l < length l ->
  exists b, nth_error l (first_bad p l) = Some b /\ p b = false.
Proof.
  induction l as [|x r IH]; cbn [first_bad length]; [lia|].
  destruct (p x) eqn:E; [|intros _; exists x; auto].
  intros H. apply IH. lia.
Qed.
Lemma first_bad_prefix_ok p l : forallb p (firstn (first_bad p l) l) = true.
Proof.
  induction l as [|x r IH]; [reflexivity|]. cbn [first_bad].
  destruct (p x) eqn:E; [|reflexivity]. cbn [firstn forallb]. rewrite E. exact IH.
Qed.
Lemma first_bad_weaken (p q : N -> bool) l :
  (forall b, p b = true -> q b = true) -> first_bad p l <= first_bad q l.
Proof.
  intros H. induction l as [|x r IH]; [reflexivity|]. cbn [first_bad].
  destruct (p x) eqn:E; [rewrite (H _ E); lia|lia].
Qed.
Lemma first_bad_ext (p q : N -> bool) l :
  Forall (fun b => p b = q b) l -> first_bad p l = first_bad q l.
Proof.
  induction 1 as [|x r Hx Hr IH]; [reflexivity|]. cbn [first_bad]. rewrite Hx, IH. reflexivity.
Qed.
Lemma first_bad_ext_bytes (p q : N -> bool) l :
  (forall b, (b < 256)%N -> p b = q b) -> bytes_ok l -> first_bad p l = first_bad q l.
Proof. intros H Hb. apply first_bad_ext. eapply Forall_impl; [|exact Hb]. exact H. Qed.
Lemma first_bad_at p l n b :
  forallb p (firstn n l) = true -> nth_error l n = Some b -> p b = false -> first_bad p l = n.
Proof.
  revert n. induction l as [|x r IH]; intros n Hf Hn Hb; [destruct n; discriminate|].
  destruct n as [|n]; cbn in *.
  - injection Hn as ->. rewrite Hb. reflexivity.
  - apply andb_prop in Hf as [Hx Hf]. rewrite Hx. f_equal. eapply IH; eauto.
Qed.

Lemma hd_error_skipn {A} n (l : list A) : hd_error (skipn n l) = nth_error l n.
Proof.
  revert l; induction n as [|n IH]; intros [|x r]; cbn; auto.
Qed.
