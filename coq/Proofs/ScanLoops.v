(* Proofs/ScanLoops.v -- the loop shells of Scan.v stop exactly at the first
   out-of-class byte, given block kernels that return the first index failing a
   predicate contained in the class (the loops re-examine the stopping byte). *)
From Coq Require Import List NArith Arith Lia.
From HV Require Import Cursor Scan.
From HV.Proofs Require Import Base.

Definition scan_exact (s : nat -> P unit) (cls : N -> bool) : Prop :=
  forall fuel c, bytes_ok (rest c) -> length (rest c) < fuel ->
    s fuel c = Done tt (adv (first_bad cls (rest c)) c).

Lemma bind_done {A B} (m : P A) (f : A -> P B) c a c' :
  m c = Done a c' -> bind m f c = f a c'.
Proof. intros H. unfold bind. rewrite H. reflexivity. Qed.

Lemma first_bad_split p n l : n <= length l ->
  first_bad p l = if Nat.eqb (first_bad p (firstn n l)) n then n + first_bad p (skipn n l)
                  else first_bad p (firstn n l).
Proof.
  intros H. rewrite <- (firstn_skipn n l) at 1. rewrite first_bad_app.
  rewrite firstn_length, Nat.min_l by exact H. reflexivity.
Qed.

Lemma first_bad_block_le p W l : first_bad p (firstn W l) <= W.
Proof. etransitivity; [apply first_bad_le|apply firstn_le_length]. Qed.
Lemma block_prefix_ok p W l : forallb p (firstn (first_bad p (firstn W l)) l) = true.
Proof.
  pose proof (first_bad_prefix_ok p (firstn W l)) as H.
  rewrite firstn_firstn, Nat.min_l in H; [exact H|apply first_bad_block_le].
Qed.

(* how every loop goes on: past n bytes that are in class, with a scanner that is exact on what is left *)
Lemma scan_continue g (s : P unit) cls n c :
  (forall c', bytes_ok (rest c') -> length (rest c') < g -> s c' = Done tt (adv (first_bad cls (rest c')) c')) ->
  bytes_ok (rest c) -> n <= length (rest c) -> length (rest c) < n + g ->
  forallb cls (firstn n (rest c)) = true ->
  s (adv n c) = Done tt (adv (first_bad cls (rest c)) c).
Proof.
  intros Hs Hb Hn Hg Hall.
  rewrite Hs; [|apply bytes_ok_skipn; exact Hb|cbn [adv rest]; rewrite skipn_length; lia].
  rewrite adv_adv, (first_bad_split cls n (rest c) Hn).
  apply first_bad_all in Hall. rewrite firstn_length, Nat.min_l in Hall by exact Hn.
  rewrite Hall, Nat.eqb_refl. reflexivity.
Qed.

Lemma first_bad_block_stop p W l :
  W <= length l -> first_bad p (firstn W l) <> W -> first_bad p l = first_bad p (firstn W l).
Proof.
  intros Hle Hne. rewrite (first_bad_split p W l Hle).
  apply Nat.eqb_neq in Hne. rewrite Hne. reflexivity.
Qed.

(* swar::match_header_name_vectored *)
Lemma swar_name_loop_exact W cls : 0 < W -> scan_exact (fun f => swar_name_loop f W cls) cls.
Proof.
  intros HW fuel. induction fuel as [|f IH]; intros c Hb Hl; [lia|].
  cbn [swar_name_loop]. unfold bind at 1. unfold peek_n. rewrite take_spec.
  destruct (Nat.leb_spec W (length (rest c))) as [Hle|Hgt]; [|apply advance_adv; apply first_bad_le].
  set (n := first_bad cls (firstn W (rest c))).
  assert (Hn : n <= W) by apply first_bad_block_le.
  rewrite (bind_done _ _ _ tt (adv n c)) by (apply advance_adv; lia).
  destruct (Nat.eqb_spec n W) as [E|E].
  - apply (scan_continue f); [exact IH|exact Hb|lia|lia|apply block_prefix_ok].
  - rewrite (first_bad_block_stop cls W (rest c) Hle E). reflexivity.
Qed.

(* swar::match_uri_vectored / match_header_value_vectored *)
Section SwarLoop.
Variables (W : nat) (kernel : list N -> nat) (strict cls : N -> bool).
Hypothesis HW : 0 < W.
Hypothesis Hkernel : forall block, length block = W -> bytes_ok block ->
  kernel block = first_bad strict block.
Hypothesis Hsub : forall b, strict b = true -> cls b = true.

Lemma forallb_weaken l : forallb strict l = true -> forallb cls l = true.
Proof.
  induction l as [|x r IH]; cbn [forallb]; [auto|]. intros H. apply andb_prop in H as [H1 H2].
  rewrite (Hsub _ H1), IH; auto.
Qed.

Lemma swar_loop_exact : scan_exact (fun f => swar_loop f W kernel cls) cls.
Proof.
  intros fuel. induction fuel as [|f IH]; intros c Hb Hl; [lia|].
  cbn [swar_loop]. unfold bind at 1. unfold peek_n. rewrite take_spec.
  assert (Tail : forall c', bytes_ok (rest c') -> length (rest c') < S f ->
    (pk <- peek ;;
     match pk with
     | Some b => if cls b then advance 1 ;;; swar_loop f W kernel cls else ret tt
     | None => ret tt
     end) c' = Done tt (adv (first_bad cls (rest c')) c')).
  { intros [p t [|b r]] Hb' Hl'; unfold bind at 1; unfold peek; cbn [rest hd_error length] in Hb', Hl' |- *.
    - unfold ret. cbn [first_bad]. rewrite adv_0. reflexivity.
    - destruct (cls b) eqn:Eb.
      + rewrite (bind_done _ _ _ tt (adv 1 (mkcur p t (b :: r)))) by (apply advance_adv; cbn [rest length]; lia).
        apply (scan_continue f); [exact IH|exact Hb'|cbn [rest length]; lia..|].
        cbn [rest firstn forallb]. rewrite Eb. reflexivity.
      + unfold ret. cbn [first_bad]. rewrite Eb, adv_0. reflexivity. }
  destruct (Nat.leb_spec W (length (rest c))) as [Hle|Hgt]; [|apply Tail; assumption].
  set (block := firstn W (rest c)).
  assert (Hlen : length block = W) by (apply firstn_length_le; exact Hle).
  rewrite Hkernel by (try exact Hlen; apply bytes_ok_firstn; exact Hb).
  set (n := first_bad strict block).
  assert (Hn : n <= W) by apply first_bad_block_le.
  rewrite (bind_done _ _ _ tt (adv n c)) by (apply advance_adv; lia).
  (* the block kernel stops no later than the class does, so both branches go on from bytes in class *)
  assert (Hpre : forallb cls (firstn n (rest c)) = true) by (apply forallb_weaken, block_prefix_ok).
  destruct (Nat.eqb_spec n W) as [E|E].
  - apply (scan_continue f); [exact IH|exact Hb|lia|lia|exact Hpre].
  - apply (scan_continue (S f)); [exact Tail|exact Hb|lia|lia|exact Hpre].
Qed.
End SwarLoop.

(* sse42 / avx2 / neon *)
Section SimdLoop.
Variables (K : nat) (kernel : list N -> nat) (cls : N -> bool) (fallback : nat -> P unit).
Hypothesis HK : 0 < K.
Hypothesis Hkernel : forall block, length block = K -> bytes_ok block ->
  kernel block = first_bad cls block.
Hypothesis Hfallback : scan_exact fallback cls.

(* the fallback is handed the *outer* fuel f0, which the loop's own fuel never exceeds *)
Lemma simd_loop_exact_gen : forall f f0 c, f <= f0 ->
  bytes_ok (rest c) -> length (rest c) < f ->
  simd_loop f K K K kernel (fallback f0) c = Done tt (adv (first_bad cls (rest c)) c).
Proof.
  induction f as [|f IH]; intros f0 c Hf Hb Hl; [lia|].
  cbn [simd_loop]. unfold bind at 1. unfold peek_n at 1. rewrite take_spec.
  destruct (Nat.leb_spec K (length (rest c))) as [Hle|Hgt]; [|apply Hfallback; [exact Hb|lia]].
  unfold bind at 1. unfold peek_n. rewrite take_spec, (proj2 (Nat.leb_le _ _) Hle).
  set (block := firstn K (rest c)).
  assert (Hlen : length block = K) by (apply firstn_length_le; exact Hle).
  rewrite Hkernel by (try exact Hlen; apply bytes_ok_firstn; exact Hb).
  set (n := first_bad cls block).
  assert (Hn : n <= K) by apply first_bad_block_le.
  rewrite (bind_done _ _ _ tt (adv n c)) by (apply advance_adv; lia).
  destruct (Nat.eqb_spec n K) as [E|E].
  - apply (scan_continue f); [intros c'; apply IH; lia|exact Hb|lia|lia|apply block_prefix_ok].
  - rewrite (first_bad_block_stop cls K (rest c) Hle E). reflexivity.
Qed.

Lemma simd_loop_exact : scan_exact (fun f => simd_loop f K K K kernel (fallback f)) cls.
Proof. intros f c. apply simd_loop_exact_gen. reflexivity. Qed.
End SimdLoop.

Lemma scan_exact_ext s cls cls' :
  (forall b, (b < 256)%N -> cls b = cls' b) -> scan_exact s cls -> scan_exact s cls'.
Proof.
  intros He Hs f c Hb Hl. rewrite Hs by assumption.
  rewrite (first_bad_ext_bytes cls cls' (rest c) He Hb). reflexivity.
Qed.
