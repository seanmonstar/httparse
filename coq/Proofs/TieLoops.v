(* TieLoops.v -- the scanner loop shells as translated from /repo/src/simd/{swar,sse42,avx2,neon}.rs on this
   run (Generated/Loops.v) = the hand-written shells of Scan.v as Backends.v and Generated/{Sse42,Avx2,Neon}.v
   instantiate them.  Nine of the ten shells have one of two shapes; each shape is written out once in the form
   the translator gives it (`swar_body`, `simd_body`) and proved equal to Scan.swar_loop / Scan.simd_loop for any
   kernel, and the nine ties hold by conversion of the generated body with its instance of the shape, so a
   generated shell of another form fails there.  The tenth, swar_name, is proved on the generated body itself. *)
From Coq Require Import List NArith Bool Lia Arith.
From HV Require Import Cursor Scan Model Imp ImpLib Backends.
From HV.Generated Require Import Classes Swar Sse42 Avx2 Neon Loops.
From HV.Proofs Require Import Base TieBase.
Import ListNotations.

Ltac loop_unfold :=
  cbv beta iota delta [irun ifun ibind iret ilift ithrow bind ret fault_ peek peek_n advance remaining
                       load_block rest_bytes rest pre tokrev].

(* a shell is `loop { .. } ; tail`: what the function returns, given how the loop ended *)
Definition after_loop (r : ires unit unit unit unit) (tail : P unit) : out unit :=
  match r with
  | IDone _ _ c => tail c
  | IPart _ => Part
  | IFail e _ => Fail e
  | IFault f _ => Fault f
  | IExc (Ret _) _ c => Done tt c
  | IExc _ _ _ => Fault Unreachable
  end.

Lemma irun_after_loop (m k : I unit unit unit unit) c :
  irun (m ;;~ k)%imp tt c = after_loop (m tt c) (irun k tt).
Proof.
  unfold irun, ifun, ibind, after_loop.
  destruct (m tt c) as [[] [] c'|l|e l|f l|[k' v|k'|[]] l c']; reflexivity.
Qed.

Lemma irun_lift_tail (p : P unit) c : irun (B:=unit) (ilift p ;;~ iret tt)%imp tt c = p c.
Proof. loop_unfold. destruct (p c) as [[] c'| | |]; reflexivity. Qed.

Section Shells.
Local Open Scope imp_scope.

(* swar.rs, match_uri_vectored / match_header_value_vectored: a block while a whole word is left and the
   kernel accepts all of it, else one byte at a time *)
Definition swar_body (W : nat) (kernel : list N -> nat) (cls : N -> bool) : I unit unit unit unit :=
  (t1 <~ ilift (peek_n W) ;;
   match t1 with
   | Some bytes8 => let n := kernel bytes8 in ilift (advance n) ;;~
                    (if Nat.eqb n W then ithrow (Cnt 1) else iret tt)
   | None => iret tt end) ;;~
  (t3 <~ ilift peek ;;
   match t3 with
   | Some b => if cls b then ilift (advance 1) ;;~ ithrow (Cnt 1) else iret tt
   | None => iret tt end) ;;~ ithrow (Brk 1 tt).
Definition swar_shell W kernel cls fuel : I unit unit unit unit :=
  iloop fuel 1 (swar_body W kernel cls) ;;~ iret tt.

Lemma swar_shell_loop W kernel cls f c :
  after_loop (iloop f 1 (swar_body W kernel cls) tt c) (ret tt) = swar_loop f W kernel cls c.
Proof.
  revert c. induction f as [|f IH]; intros [p t r]; [reflexivity|].
  cbn [swar_loop iloop]. unfold swar_body at 1. loop_unfold.
  destruct (take W r) as [b8|]; loop_unfold.
  - destruct (shift (kernel b8) t r) as [[t' r']|]; loop_unfold; [|reflexivity].
    destruct (Nat.eqb (kernel b8) W); loop_unfold; [apply IH|].
    (* the block stopped early: one byte *)
    destruct r' as [|b0 r0]; cbn [hd_error]; loop_unfold; [reflexivity|].
    destruct (cls b0); loop_unfold; cbn [shift]; [apply IH|reflexivity].
  - (* no block is left: one byte *)
    destruct r as [|b0 r0]; cbn [hd_error]; loop_unfold; [reflexivity|].
    destruct (cls b0); loop_unfold; cbn [shift]; [apply IH|reflexivity].
Qed.

Lemma tie_swar_shell W kernel cls fuel c :
  irun (swar_shell W kernel cls fuel) tt c = swar_loop fuel W kernel cls c.
Proof. unfold swar_shell. rewrite irun_after_loop. apply swar_shell_loop. Qed.

(* sse42.rs, avx2.rs, neon.rs: `while len >= G { adv = kernel(load G); advance(adv); if adv != R { return } }
   fallback(bytes)` *)
Definition simd_body (G R : nat) (kernel : list N -> nat) : I unit unit unit unit :=
  t3 <~ ilift remaining ;;
  if Nat.leb G t3
  then t1 <~ ilift (load_block G) ;;
       let adv := kernel t1 in ilift (advance adv) ;;~
       (if negb (Nat.eqb adv R) then ithrow (Ret tt) else iret tt) ;;~ iret tt
  else ithrow (Brk 1 tt).
Definition simd_shell G R kernel (fallback : P unit) fuel : I unit unit unit unit :=
  iloop fuel 1 (simd_body G R kernel) ;;~ ilift fallback ;;~ iret tt.

Lemma simd_shell_loop G R kernel fallback f c :
  after_loop (iloop f 1 (simd_body G R kernel) tt c) fallback = simd_loop f G G R kernel fallback c.
Proof.
  revert c. induction f as [|f IH]; intros [p t r]; [reflexivity|].
  cbn [simd_loop iloop]. unfold simd_body at 1. loop_unfold.
  pose proof (take_spec G r) as Ht.
  destruct (Nat.leb G (length r)); loop_unfold; rewrite Ht; loop_unfold; [|reflexivity].
  rewrite Ht; loop_unfold.
  destruct (shift (kernel (firstn G r)) t r) as [[t' r']|]; loop_unfold; [|reflexivity].
  destruct (Nat.eqb (kernel (firstn G r)) R); [apply IH|reflexivity].
Qed.

Lemma tie_simd_shell G R kernel fallback fuel c :
  irun (simd_shell G R kernel fallback fuel) tt c = simd_loop fuel G G R kernel fallback c.
Proof.
  unfold simd_shell. rewrite irun_after_loop, <- simd_shell_loop.
  destruct (iloop _ _ _ _ _); try reflexivity. apply irun_lift_tail.
Qed.

End Shells.

Lemma tie_swar_uri W fuel c : gl_swar_uri W fuel c = swar_uri W fuel c.
Proof. exact (tie_swar_shell W (match_uri_char_8_swar W) is_uri_token fuel c). Qed.
Lemma tie_swar_value W fuel c : gl_swar_value W fuel c = swar_value W fuel c.
Proof. exact (tie_swar_shell W (match_header_value_char_8_swar W) is_header_value_token fuel c). Qed.

(* the header-name scanner leaves the loop by `return` at the first bad byte of a block; what is shorter than a
   block goes to match_tail *)
Lemma tie_swar_name W fuel c : gl_swar_name W fuel c = swar_name W fuel c.
Proof.
  unfold gl_swar_name, gl_swar_name_body, swar_name. rewrite irun_after_loop.
  grab_loop 1%nat B. set (tail := irun _ _).
  assert (Htail : forall c, tail c = advance (first_bad is_header_name_token (rest c)) c).
  { exact (irun_lift_tail (fun c => advance (first_bad is_header_name_token (rest c)) c)). }
  clearbody tail. revert c.
  induction fuel as [|f IH]; intros [p t r]; [reflexivity|].
  cbn [swar_name_loop iloop]. unfold B at 1. loop_unfold.
  destruct (take W r) as [blk|]; loop_unfold; [|apply Htail].
  destruct (shift (first_bad is_header_name_token blk) t r) as [[t' r']|]; loop_unfold; [|reflexivity].
  destruct (Nat.eqb _ W); [apply IH|reflexivity].
Qed.

Lemma tie_sse42_uri fb fuel c : gl_sse42_uri fb fuel c = sse42_match_uri_vectored fb fuel c.
Proof. exact (tie_simd_shell 16 16 match_url_char_16_sse fb fuel c). Qed.
Lemma tie_sse42_value fb fuel c : gl_sse42_value fb fuel c = sse42_match_header_value_vectored fb fuel c.
Proof. exact (tie_simd_shell 16 16 match_header_value_char_16_sse fb fuel c). Qed.
Lemma tie_avx2_uri fb fuel c : gl_avx2_uri fb fuel c = avx2_match_uri_vectored fb fuel c.
Proof. exact (tie_simd_shell 32 32 match_url_char_32_avx fb fuel c). Qed.
Lemma tie_avx2_value fb fuel c : gl_avx2_value fb fuel c = avx2_match_header_value_vectored fb fuel c.
Proof. exact (tie_simd_shell 32 32 match_header_value_char_32_avx fb fuel c). Qed.
Lemma tie_neon_uri fb fuel c : gl_neon_uri fb fuel c = neon_match_uri_vectored fb fuel c.
Proof. exact (tie_simd_shell 16 16 match_url_char_16_neon fb fuel c). Qed.
Lemma tie_neon_value fb fuel c : gl_neon_value fb fuel c = neon_match_header_value_vectored fb fuel c.
Proof. exact (tie_simd_shell 16 16 match_header_value_char_16_neon fb fuel c). Qed.
Lemma tie_neon_name fb fuel c : gl_neon_name fb fuel c = neon_match_header_name_vectored fb fuel c.
Proof. exact (tie_simd_shell 16 16 match_header_name_char_16_neon fb fuel c). Qed.

Definition loop_shells_tied : Prop := forall W fb fuel c,
  gl_swar_uri W fuel c = swar_uri W fuel c /\ gl_swar_value W fuel c = swar_value W fuel c /\
  gl_swar_name W fuel c = swar_name W fuel c /\
  gl_sse42_uri fb fuel c = sse42_match_uri_vectored fb fuel c /\
  gl_sse42_value fb fuel c = sse42_match_header_value_vectored fb fuel c /\
  gl_avx2_uri fb fuel c = avx2_match_uri_vectored fb fuel c /\
  gl_avx2_value fb fuel c = avx2_match_header_value_vectored fb fuel c /\
  gl_neon_uri fb fuel c = neon_match_uri_vectored fb fuel c /\
  gl_neon_value fb fuel c = neon_match_header_value_vectored fb fuel c /\
  gl_neon_name fb fuel c = neon_match_header_name_vectored fb fuel c.
Lemma loop_shells_tied_pf : loop_shells_tied.
Proof.
  intros W fb fuel c.
  exact (conj (tie_swar_uri W fuel c) (conj (tie_swar_value W fuel c) (conj (tie_swar_name W fuel c)
    (conj (tie_sse42_uri fb fuel c) (conj (tie_sse42_value fb fuel c) (conj (tie_avx2_uri fb fuel c)
    (conj (tie_avx2_value fb fuel c) (conj (tie_neon_uri fb fuel c) (conj (tie_neon_value fb fuel c)
    (tie_neon_name fb fuel c)))))))))).
Qed.
