(* Proofs/BackendsOk.v -- every provider of the three scanner entry points satisfies the
   interface of EnvOk.v, for every BLOCK_SIZE > 0.  This is scanner_exact of C12 and
   the reason backend_independent (C13) holds. *)
From Coq Require Import List NArith Lia Bool.
From HV Require Import Scan Spec Backends.
From HV.Generated Require Import Classes Sse42 Avx2 Neon Cfg.
From HV.Proofs Require Import Swar ScanLoops EnvOk Kernels.

Lemma strict_lt_256 m b : strict_class m b = true -> (b < 256)%N.
Proof. unfold strict_class. lia. Qed.

(* strict_class 33 is uri_char as written; value_char is HTAB or strict_class 32 *)
Lemma strict33_sub_uri b : strict_class 33 b = true -> is_uri_token b = true.
Proof. intros H. rewrite is_uri_token_class by exact (strict_lt_256 _ _ H). exact H. Qed.
Lemma strict32_sub_value b : strict_class 32 b = true -> is_header_value_token b = true.
Proof.
  intros H. rewrite is_header_value_token_class by exact (strict_lt_256 _ _ H).
  unfold value_char. rewrite <- orb_assoc. apply orb_true_iff. right. exact H.
Qed.

Section Width.
Variable W : nat.
Hypothesis HW : 0 < W.

Lemma swar_uri_exact : scan_exact (swar_uri W) uri_char.
Proof.
  apply (scan_exact_ext _ is_uri_token); [exact is_uri_token_class|].
  unfold swar_uri. apply (swar_loop_exact W _ (strict_class 33) is_uri_token HW).
  - exact (swar_uri_kernel_exact W).
  - exact strict33_sub_uri.
Qed.
Lemma swar_value_exact : scan_exact (swar_value W) value_char.
Proof.
  apply (scan_exact_ext _ is_header_value_token); [exact is_header_value_token_class|].
  unfold swar_value. apply (swar_loop_exact W _ (strict_class 32) is_header_value_token HW).
  - exact (swar_value_kernel_exact W).
  - exact strict32_sub_value.
Qed.
Lemma swar_name_exact : scan_exact (swar_name W) tchar.
Proof.
  apply (scan_exact_ext _ is_header_name_token); [exact is_header_name_token_class|].
  unfold swar_name. apply swar_name_loop_exact. exact HW.
Qed.

Lemma classes_ok u v n :
  scan_exact u uri_char -> scan_exact v value_char -> scan_exact n tchar -> env_ok (mk u v n).
Proof.
  intros Hu Hv Hn. constructor; cbn [mk c_method c_uri c_name c_value s_uri s_value s_name].
  - exact is_method_token_class.
  - exact is_uri_token_class.
  - exact is_header_name_token_class.
  - exact is_header_value_token_class.
  - exact Hu.
  - exact Hv.
  - exact Hn.
Qed.

Theorem env_swar_ok : env_ok (env_swar W).
Proof. apply classes_ok; [exact swar_uri_exact|exact swar_value_exact|exact swar_name_exact]. Qed.

Theorem env_sse42_ok : env_ok (env_sse42 W).
Proof.
  apply classes_ok; [| |exact swar_name_exact].
  - unfold sse42_match_uri_vectored, match_url_char_16_sse_lanes.
    apply (simd_loop_exact 16 _ uri_char (swar_uri W)); [lia|exact sse_uri_kernel_exact|exact swar_uri_exact].
  - unfold sse42_match_header_value_vectored, match_header_value_char_16_sse_lanes.
    apply (simd_loop_exact 16 _ value_char (swar_value W)); [lia|exact sse_value_kernel_exact|exact swar_value_exact].
Qed.

Theorem env_avx2_ok : env_ok (env_avx2 W).
Proof.
  apply classes_ok; [| |exact swar_name_exact].
  - unfold avx2_match_uri_vectored, match_url_char_32_avx_lanes.
    apply (simd_loop_exact 32 _ uri_char (swar_uri W)); [lia|exact avx_uri_kernel_exact|exact swar_uri_exact].
  - unfold avx2_match_header_value_vectored, match_header_value_char_32_avx_lanes.
    apply (simd_loop_exact 32 _ value_char (swar_value W)); [lia|exact avx_value_kernel_exact|exact swar_value_exact].
Qed.

Theorem env_neon_ok : env_ok (env_neon W).
Proof.
  apply classes_ok.
  - unfold neon_match_uri_vectored, match_url_char_16_neon_lanes.
    apply (simd_loop_exact 16 _ uri_char (swar_uri W)); [lia|exact neon_uri_kernel_exact|exact swar_uri_exact].
  - unfold neon_match_header_value_vectored, match_header_value_char_16_neon_lanes.
    apply (simd_loop_exact 16 _ value_char (swar_value W)); [lia|exact neon_value_kernel_exact|exact swar_value_exact].
  - unfold neon_match_header_name_vectored, match_header_name_char_16_neon_lanes.
    apply (simd_loop_exact 16 _ tchar (swar_name W)); [lia|exact neon_name_kernel_exact|exact swar_name_exact].
Qed.

Theorem env_runtime_ok : forall id, env_ok (env_runtime W id).
Proof.
  intros id. unfold env_runtime.
  destruct (N.eqb id RT_AVX2); [exact env_avx2_ok|].
  destruct (N.eqb id RT_SSE42); [exact env_sse42_ok|exact env_swar_ok].
Qed.

Theorem env_of_ok : forall be, env_ok (env_of W be).
Proof.
  intros [| | | |id]; cbn [env_of];
    [exact env_swar_ok|exact env_sse42_ok|exact env_avx2_ok|exact env_neon_ok|exact (env_runtime_ok id)].
Qed.
End Width.
