(* Proofs/Kernels.v -- the translated class tables are the RFC classes, and every
   translated x86 / NEON block kernel returns the index of the first byte outside its
   class (256-sweeps per lane, lifted to all blocks). *)
From Coq Require Import List NArith Arith Lia Bool.
From HV Require Import Scan Intrinsics Spec.
From HV.Generated Require Import Classes Sse42 Avx2 Neon.
From HV.Proofs Require Import Base Swar ScanLoops.
Local Open Scope N_scope.

(* Equality of two byte functions on all 256 values, by evaluation. *)
Lemma sweep_eq (f g : N -> bool) :
  all_bytes (fun b => Bool.eqb (f b) (g b)) = true -> forall b, b < 256 -> f b = g b.
Proof. intros H b Hb. apply eqb_prop. exact (all_bytes_spec _ H b Hb). Qed.

Ltac by_sweep := apply sweep_eq; vm_compute; reflexivity.

(* the translated class tables and predicates of lib.rs (and NEON's bit_set) are the classes of Spec.v *)
Lemma URI_MAP_class : forall b, b < 256 -> URI_MAP b = uri_char b. Proof. by_sweep. Qed.
Lemma TOKEN_MAP_class : forall b, b < 256 -> TOKEN_MAP b = tchar b. Proof. by_sweep. Qed.
Lemma HEADER_VALUE_MAP_class : forall b, b < 256 -> HEADER_VALUE_MAP b = value_char b. Proof. by_sweep. Qed.
Lemma is_method_token_class : forall b, b < 256 -> is_method_token b = tchar b. Proof. by_sweep. Qed.
Lemma is_uri_token_class : forall b, b < 256 -> is_uri_token b = uri_char b. Proof. by_sweep. Qed.
Lemma is_header_name_token_class : forall b, b < 256 -> is_header_name_token b = tchar b. Proof. by_sweep. Qed.
Lemma is_header_value_token_class : forall b, b < 256 -> is_header_value_token b = value_char b. Proof. by_sweep. Qed.
Lemma neon_bit_set_class : forall b, b < 256 -> neon_bit_set b = tchar b. Proof. by_sweep. Qed.

(* one lane of each translated block kernel marks exactly the bytes of the class: by its top bit on x86, by
   being all ones on NEON *)
Lemma sse_uri_lane : forall b, b < 256 -> msb8 (match_url_char_16_sse_lane b) = uri_char b. Proof. by_sweep. Qed.
Lemma sse_value_lane : forall b, b < 256 -> msb8 (match_header_value_char_16_sse_lane b) = value_char b. Proof. by_sweep. Qed.
Lemma avx_uri_lane : forall b, b < 256 -> msb8 (match_url_char_32_avx_lane b) = uri_char b. Proof. by_sweep. Qed.
Lemma avx_value_lane : forall b, b < 256 -> msb8 (match_header_value_char_32_avx_lane b) = value_char b. Proof. by_sweep. Qed.
Lemma neon_uri_lane : forall b, b < 256 ->
  (mvn8 (match_url_char_16_neon_lane b) =? 0) = uri_char b. Proof. by_sweep. Qed.
Lemma neon_value_lane : forall b, b < 256 ->
  (mvn8 (match_header_value_char_16_neon_lane b) =? 0) = value_char b. Proof. by_sweep. Qed.
Lemma neon_name_lane : forall b, b < 256 ->
  (mvn8 (match_header_name_char_16_neon_lane b) =? 0) = tchar b. Proof. by_sweep. Qed.

Lemma trailing_ones_map (p : N -> bool) l : trailing_ones (map p l) = first_bad p l.
Proof. induction l as [|b r IH]; [reflexivity|]. cbn [map trailing_ones first_bad]. destruct (p b); [f_equal; exact IH|reflexivity]. Qed.

Lemma first_nonzero_map (f : N -> N) l :
  first_nonzero (map f l) = first_bad (fun b => f b =? 0) l.
Proof. induction l as [|b r IH]; [reflexivity|]. cbn [map first_nonzero first_bad]. destruct (f b =? 0); [f_equal; exact IH|reflexivity]. Qed.

Lemma first_nonzero_app a b :
  first_nonzero (a ++ b) =
  if forallb (fun x => x =? 0) a then (length a + first_nonzero b)%nat else first_nonzero a.
Proof.
  induction a as [|x r IH]; [reflexivity|]. cbn [app first_nonzero forallb length].
  destruct (x =? 0); cbn [andb]; [|reflexivity]. rewrite IH. destruct (forallb _ r); reflexivity.
Qed.

Lemma neon_offsetnz_spec x : length x = 16%nat -> neon_offsetnz x = first_nonzero x.
Proof.
  intros Hl. unfold neon_offsetnz.
  rewrite <- (firstn_skipn 8 x) at 5. rewrite first_nonzero_app.
  rewrite firstn_length, Nat.min_l by lia.
  destruct (forallb (fun b => b =? 0) (firstn 8 x)); cbn [negb]; [|reflexivity].
  destruct (forallb (fun b => b =? 0) (skipn 8 x)) eqn:E; cbn [negb]; [|reflexivity].
  rewrite first_nonzero_all_zero by exact E. rewrite skipn_length. lia.
Qed.

Section Lanes.
Variables (lane : N -> N) (cls : N -> bool).

Lemma x86_kernel_exact K :
  (forall b, b < 256 -> msb8 (lane b) = cls b) ->
  forall block, length block = K -> bytes_ok block ->
  trailing_ones (firstn K (map (fun dat => msb8 (lane dat)) block)) = first_bad cls block.
Proof.
  intros Hlane block Hl Hb. rewrite firstn_all2 by (rewrite map_length; lia).
  rewrite trailing_ones_map. apply first_bad_ext_bytes; [exact Hlane|exact Hb].
Qed.

Lemma neon_kernel_exact :
  (forall b, b < 256 -> (mvn8 (lane b) =? 0) = cls b) ->
  forall block, length block = 16%nat -> bytes_ok block ->
  neon_offsetz (map lane block) = first_bad cls block.
Proof.
  intros Hlane block Hl Hb. unfold neon_offsetz.
  rewrite neon_offsetnz_spec by (rewrite !map_length; exact Hl).
  rewrite map_map, first_nonzero_map. apply first_bad_ext_bytes; [exact Hlane|exact Hb].
Qed.
End Lanes.

Theorem sse_uri_kernel_exact : forall block, length block = 16%nat -> bytes_ok block ->
  match_url_char_16_sse block = first_bad uri_char block.
Proof. apply (x86_kernel_exact _ _ 16%nat sse_uri_lane). Qed.
Theorem sse_value_kernel_exact : forall block, length block = 16%nat -> bytes_ok block ->
  match_header_value_char_16_sse block = first_bad value_char block.
Proof. apply (x86_kernel_exact _ _ 16%nat sse_value_lane). Qed.
Theorem avx_uri_kernel_exact : forall block, length block = 32%nat -> bytes_ok block ->
  match_url_char_32_avx block = first_bad uri_char block.
Proof. apply (x86_kernel_exact _ _ 32%nat avx_uri_lane). Qed.
Theorem avx_value_kernel_exact : forall block, length block = 32%nat -> bytes_ok block ->
  match_header_value_char_32_avx block = first_bad value_char block.
Proof. apply (x86_kernel_exact _ _ 32%nat avx_value_lane). Qed.
Theorem neon_uri_kernel_exact : forall block, length block = 16%nat -> bytes_ok block ->
  match_url_char_16_neon block = first_bad uri_char block.
Proof. apply (neon_kernel_exact _ _ neon_uri_lane). Qed.
Theorem neon_value_kernel_exact : forall block, length block = 16%nat -> bytes_ok block ->
  match_header_value_char_16_neon block = first_bad value_char block.
Proof. apply (neon_kernel_exact _ _ neon_value_lane). Qed.
Theorem neon_name_kernel_exact : forall block, length block = 16%nat -> bytes_ok block ->
  match_header_name_char_16_neon block = first_bad tchar block.
Proof. apply (neon_kernel_exact _ _ neon_name_lane). Qed.
