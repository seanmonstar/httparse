(* Proofs/ZeroCopy.v -- every slice the reference parsers hand back is a sub-slice of the
   buffer (its contents ARE the buffer bytes at that offset), lies inside the region its
   stage consumed, and slices appear in input order (C04, dynamic half). *)
From Coq Require Import List NArith PeanoNat Lia Bool.
From HV Require Import Cursor Model Api Spec Oracle.
From HV.Proofs Require Import RefInd RefFacts.
Import ListNotations.

Definition in_buf (buf : list N) (lo hi : nat) (s : sl) : Prop :=
  match s with
  | Sub o bs => lo <= o /\ o + length bs <= hi /\ sub_of buf o (length bs) = bs
  | Ext _ => lo <= hi       (* located elsewhere: only the empty reason (and the internal "dropped" mark) *)
  end.

Lemma in_buf_weaken buf lo hi lo' hi' s : lo' <= lo -> hi <= hi' -> in_buf buf lo hi s -> in_buf buf lo' hi' s.
Proof.
  intros Hlo Hhi. destruct s as [o bs|bs]; cbn [in_buf].
  - intros (Ho & Hbs & Hs). split; [lia|]. split; [lia|exact Hs].
  - lia.
Qed.

Lemma in_buf_le buf lo hi s : in_buf buf lo hi s -> lo <= hi.
Proof. destruct s; cbn [in_buf]; lia. Qed.

Fixpoint chain (buf : list N) (lo : nat) (ss : list sl) (hi : nat) : Prop :=
  match ss with
  | [] => lo <= hi
  | s :: r => exists mid, in_buf buf lo mid s /\ chain buf mid r hi
  end.

Lemma chain_le buf ss : forall lo hi, chain buf lo ss hi -> lo <= hi.
Proof.
  induction ss as [|s r IH]; intros lo hi H; cbn [chain] in H; [exact H|].
  destruct H as [mid [Hs Hr]]. apply IH in Hr. apply in_buf_le in Hs. lia.
Qed.

Lemma chain_weaken buf ss : forall lo lo' hi hi', lo' <= lo -> hi <= hi' -> chain buf lo ss hi -> chain buf lo' ss hi'.
Proof.
  induction ss as [|s r IH]; intros lo lo' hi hi' H1 H2 H; cbn [chain] in *; [lia|].
  destruct H as [mid [Hs Hr]]. exists mid. split.
  - eapply in_buf_weaken; [exact H1| |exact Hs]. lia.
  - eapply IH; [| |exact Hr]; lia.
Qed.

Lemma chain_app buf a b : forall lo mid hi, chain buf lo a mid -> chain buf mid b hi -> chain buf lo (a ++ b) hi.
Proof.
  induction a as [|s r IH]; intros lo mid hi Ha Hb; cbn [chain app] in *.
  - eapply chain_weaken; [exact Ha| |exact Hb]. lia.
  - destruct Ha as [m [Hs Hr]]. exists m. split; [exact Hs|]. eapply IH; eauto.
Qed.

Lemma chain_one buf lo hi s : in_buf buf lo hi s -> chain buf lo [s] hi.
Proof. intros H. exists hi. split; [exact H|apply le_n]. Qed.

Definition hdr_slices (hs : list (sl * sl)) : list sl := flat_map (fun h => [fst h; snd h]) hs.

Lemma hdr_slices_app a b : hdr_slices (a ++ b) = hdr_slices a ++ hdr_slices b.
Proof. unfold hdr_slices. apply flat_map_app. Qed.

Definition olist {A} (o : option A) : list A := match o with Some x => [x] | None => [] end.

Definition req_slices (r : ref_req) : list sl :=
  olist (rs_method (rq_start r)) ++ olist (rs_path (rq_start r)) ++ hdr_slices (rq_headers r).
Definition resp_slices (r : ref_resp) : list sl :=
  olist (rs_reason (rp_start r)) ++ hdr_slices (rp_headers r).
Definition lim (buf : list N) (st : status) : nat := match st with Complete n => n | _ => length buf end.

Section ZC.
Variable buf : list N.

Definition at_off (off : nat) (l : list N) : Prop := exists pre, buf = pre ++ l /\ length pre = off.

Lemma at_off_start : at_off 0 buf.
Proof. exists []. split; reflexivity. Qed.

Lemma at_off_step off q r : at_off off (q ++ r) -> at_off (length q + off) r.
Proof.
  intros (pre & Hb & <-). exists (pre ++ q). rewrite <- app_assoc, app_length. split; [exact Hb|lia].
Qed.

Lemma at_off_le off l : at_off off l -> off <= length buf.
Proof. intros (pre & Hb & <-). rewrite Hb, app_length. apply Nat.le_add_r. Qed.

Lemma sub_in off m t hi : at_off off (m ++ t) -> length m + off <= hi -> in_buf buf off hi (Sub off m).
Proof.
  intros (pre & Hb & <-) Hhi. cbn [in_buf]. split; [apply le_n|]. split; [rewrite Nat.add_comm; exact Hhi|].
  unfold sub_of. rewrite Hb, skipn_app, skipn_all, Nat.sub_diag. cbn [skipn app].
  rewrite firstn_app, Nat.sub_diag, firstn_all. cbn [firstn]. apply app_nil_r.
Qed.

Lemma to_end lo ss off l : at_off off l -> chain buf lo ss off -> chain buf lo ss (length buf).
Proof. intros P C. eapply chain_weaken; [apply le_n|exact (at_off_le _ _ P)|exact C]. Qed.

Definition placed {A} (f : A -> list sl) (off : nat) (l : list N) (x : rres A) : Prop :=
  match x with
  | ROk a o r => at_off off l -> at_off o r /\ chain buf off (f a) o
  | _ => True
  end.

Lemma placed_adv0 {A off l} {x : rres A} : advances0 off l x -> placed (fun _ => []) off l x.
Proof.
  intros H. destruct x as [a o r| |]; [|exact I..]. apply advances0_inv in H as (q & -> & ->).
  intros P. split; [apply at_off_step, P|]. cbn [chain]. apply Nat.le_add_l.
Qed.
Lemma placed_adv {A off l} {x : rres A} : advances off l x -> placed (fun _ => []) off l x.
Proof. intros H. apply placed_adv0, advances_weaken, H. Qed.

(* where it stops is known from `advances0`; what is left to show is where the slices lie *)
Lemma placed_slices {A} f off l (x : rres A) :
  advances0 off l x ->
  (forall a o r, x = ROk a o r -> at_off off l -> off <= o -> chain buf off (f a) o) ->
  placed f off l x.
Proof.
  intros H Hf. apply placed_adv0 in H. destruct x as [a o r| |]; [|exact I..]. intros P.
  destruct (H P) as [P' Hle]. split; [exact P'|]. exact (Hf a o r eq_refl P Hle).
Qed.

(* the slices of a first stage are not in the result of the two *)
Lemma placed_bind {A B f g off l} {x : rres A} {k : A -> nat -> list N -> rres B} :
  placed f off l x -> (forall a o r, placed g o r (k a o r)) -> placed g off l (rbind x k).
Proof.
  intros Hx Hk. destruct x as [a o r| |]; cbn [rbind]; [|exact I..]. specialize (Hk a o r).
  destruct (k a o r) as [b o' r'| |]; [|exact I..]. intros P.
  destruct (Hx P) as [P' C]. destruct (Hk P') as [P'' C']. split; [exact P''|].
  apply chain_le in C. eapply chain_weaken; [exact C|apply le_n|exact C'].
Qed.

Lemma placed_app {A} f off q r (x : rres A) : placed f (length q + off) r x -> placed f off (q ++ r) x.
Proof.
  intros H. destruct x as [a o r'| |]; [|exact I..]. intros P.
  destruct (H (at_off_step _ _ _ P)) as [P' C]. split; [exact P'|].
  eapply chain_weaken; [apply Nat.le_add_l|apply le_n|exact C].
Qed.

(* method and target: a run of bytes, then the SP that ends it *)
Lemma span_placed p off l m b r : span p l = (m, b :: r) ->
  placed (fun s => [s]) off l (ROk (Sub off m) (S (length m) + off) r).
Proof.
  intros Es. apply span_eq in Es as [-> _]. intros P. split.
  - apply (at_off_step (length m + off) [b]), at_off_step, P.
  - apply chain_one. apply (sub_in _ _ _ _ P), Nat.le_succ_diag_r.
Qed.

Lemma ref_method_placed off l : placed (fun s => [s]) off l (ref_method off l).
Proof.
  unfold ref_method. destruct (span tchar l) as [m [|b r]] eqn:Es; [exact I|].
  destruct (null m); [exact I|]. destruct (is 32 b); [|exact I]. exact (span_placed _ _ _ _ _ _ Es).
Qed.

Lemma ref_target_placed off l : placed (fun s => [s]) off l (ref_target off l).
Proof.
  unfold ref_target. destruct (span uri_char l) as [m [|b r]] eqn:Es; [exact I|].
  destruct (negb (is 32 b)); [exact I|]. destruct (null m); [exact I|].
  destruct (negb (utf8_valid m)); [exact I|]. exact (span_placed _ _ _ _ _ _ Es).
Qed.

Lemma ref_reason_placed off l : placed (fun s => [s]) off l (ref_reason off l).
Proof.
  unfold ref_reason. destruct (span reason_char l) as [t r] eqn:Es. apply span_eq in Es as [-> _].
  pose proof (placed_adv (ref_eol_adv Status (length t + off) r)) as He.
  destruct (ref_eol Status (length t + off) r) as [u o r'| |]; [|exact I..].
  intros P. destruct (He (at_off_step _ _ _ P)) as [P' Hle]. cbn [chain] in Hle.
  split; [exact P'|]. apply chain_one. destruct (forallb _ t).
  - exact (sub_in _ _ _ _ P Hle).
  - cbn [in_buf]. lia.
Qed.

Lemma ref_after_code_placed ms off l : placed (fun s => [s]) off l (ref_after_code ms off l).
Proof.
  unfold ref_after_code. destruct l as [|b l']; [exact I|]. destruct (is 32 b).
  - apply (placed_app _ off [b]). apply (placed_bind (placed_adv0 (ref_spaces_adv ms (S off) l'))).
    intros _ o l. apply ref_reason_placed.
  - destruct (is 13 b || is 10 b); [|exact I].
    pose proof (placed_adv (ref_eol_adv Status off (b :: l'))) as He.
    destruct (ref_eol Status off (b :: l')) as [u o r'| |]; [|exact I..].
    intros P. destruct (He P) as [P' Hle]. split; [exact P'|]. apply chain_one. exact Hle.
Qed.

(* Stages run one after the other from offset lo, `ss` being the slices handed out before this
   one.  If it fails the message ends here, and they lie inside the whole buffer. *)
Definition upto {A} (lo : nat) (ss : list sl) (f : A -> list sl) (x : rres A) : Prop :=
  match x with
  | ROk a o r => at_off o r /\ chain buf lo (ss ++ f a) o
  | _ => chain buf lo ss (length buf)
  end.

Lemma upto_step {A lo ss f off l} {x : rres A} :
  at_off off l -> chain buf lo ss off -> placed f off l x -> upto lo ss f x.
Proof.
  intros P C Hx. destruct x as [a o r| |]; [|exact (to_end _ _ _ _ P C)..].
  destruct (Hx P) as [P' C']. split; [exact P'|exact (chain_app buf _ _ _ _ _ C C')].
Qed.

Lemma ref_request_line_upto ms :
  let (st, x) := ref_request_line ms buf in
  upto 0 (olist (rs_method st) ++ olist (rs_path st)) (fun _ => []) x.
Proof.
  (* one step per stage; the slice lists met on the way, ([] ++ [m]) ++ [p] and the like, are
     the fields of the record by computation *)
  unfold ref_request_line.
  pose proof (upto_step at_off_start (le_n 0 : chain buf 0 [] 0)
                (placed_adv0 (ref_empty_lines_adv 0 buf))) as U1.
  destruct (ref_empty_lines 0 buf) as [u1 o1 l1| |e1]; [destruct U1 as [P1 C1]|exact U1..].
  pose proof (upto_step P1 C1 (ref_method_placed o1 l1)) as U2.
  destruct (ref_method o1 l1) as [m o2 l2| |e2]; [destruct U2 as [P2 C2]|exact U2..].
  pose proof (upto_step P2 C2 (placed_bind (placed_adv0 (ref_spaces_adv ms o2 l2))
                                           (fun _ o l => ref_target_placed o l))) as U3.
  destruct (rbind (ref_spaces ms o2 l2) _) as [p o3 l3| |e3]; [destruct U3 as [P3 C3]|exact U3..].
  pose proof (upto_step P3 C3 (placed_bind (placed_adv0 (ref_spaces_adv ms o3 l3))
                                           (fun _ o l => placed_adv (ref_version_adv o l)))) as U4.
  destruct (rbind (ref_spaces ms o3 l3) _) as [v o4 l4| |e4]; [destruct U4 as [P4 C4]|exact U4..].
  exact (upto_step P4 C4 (placed_adv (ref_eol_adv NewLine o4 l4))).
Qed.

Lemma ref_status_line_upto ms :
  let (st, x) := ref_status_line ms buf in upto 0 (olist (rs_reason st)) (fun _ => []) x.
Proof.
  unfold ref_status_line.
  pose proof (upto_step at_off_start (le_n 0 : chain buf 0 [] 0)
                (placed_bind (placed_adv0 (ref_empty_lines_adv 0 buf))
                             (fun _ o l => placed_adv (ref_version_adv o l)))) as U1.
  destruct (rbind (ref_empty_lines 0 buf) _) as [v o1 l1| |e1]; [destruct U1 as [P1 C1]|exact U1..].
  pose proof (upto_step P1 C1
                (placed_bind (placed_bind (placed_adv (ref_sp_adv Version o1 l1))
                                          (fun _ o l => placed_adv0 (ref_spaces_adv ms o l)))
                             (fun _ o l => placed_adv (ref_code_adv o l)))) as U2.
  destruct (rbind (rbind (ref_sp Version o1 l1) _) _) as [c o2 l2| |e2]; [destruct U2 as [P2 C2]|exact U2..].
  pose proof (upto_step P2 C2 (ref_after_code_placed ms o2 l2)) as U3.
  destruct (ref_after_code ms o2 l2); exact U3.
Qed.

Section Headers.
Variable hc : hcfg.

Lemma vtrim_in voff racc t hi :
  at_off voff (rev racc ++ t) -> length racc + voff <= hi -> in_buf buf voff hi (vtrim voff racc).
Proof.
  intros P Hhi. destruct (drop_while_suffix is_trim racc) as [a Hs]. unfold vtrim. rewrite rev'_rev.
  apply (f_equal (@rev N)) in Hs. rewrite rev_app_distr in Hs.
  rewrite Hs, <- app_assoc in P. apply (sub_in _ _ _ _ P).
  apply (f_equal (@length N)) in Hs. rewrite app_length, !rev_length in Hs.
  rewrite rev_length. lia.
Qed.

Lemma vinvalid_in lo off l : lo <= off ->
  match vinvalid hc off l with ROk s o _ => in_buf buf lo o s | _ => True end.
Proof.
  intros Hlo. unfold vinvalid.
  destruct (ref_invalid _ HeaderValue off l) as [x o r| |] eqn:E; cbn [rbind]; [|exact I..].
  apply ref_invalid_ok in E as (_ & _ & junk & el & _ & _ & _ & ->). cbn [in_buf]. lia.
Qed.

(* the bytes taken so far, `rev racc`, are those of buf from voff to off *)
Lemma ref_value_lines_in voff : forall racc off l,
  at_off voff (rev racc ++ l) -> off = length racc + voff ->
  match ref_value_lines hc voff racc off l with ROk s o _ => in_buf buf voff o s | _ => True end.
Proof.
  apply (ref_value_lines_ind hc voff (fun racc off l x =>
    at_off voff (rev racc ++ l) -> off = length racc + voff ->
    match x with ROk s o _ => in_buf buf voff o s | _ => True end)).
  - intros; exact I.
  - intros; exact I.
  - intros racc off b r x _ IH P ->. apply IH; [|reflexivity]. cbn [rev]. rewrite <- app_assoc. exact P.
  - intros racc off e r _ _ P ->. apply (vtrim_in _ _ _ _ P), Nat.le_add_l.
  - (* fold *)
    intros racc off e b r x _ _ _ IH P ->. apply IH.
    + rewrite rev_app_distr, rev_involutive, <- app_assoc. exact P.
    + rewrite app_length, rev_length. apply Nat.add_assoc.
  - intros racc off b r _ _ _ _ ->. apply vinvalid_in, Nat.le_add_l.
Qed.

Lemma ref_value_start_in lo : forall off l, at_off off l -> lo <= off ->
  match ref_value_start hc off l with ROk s o _ => in_buf buf lo o s | _ => True end.
Proof.
  apply (ref_value_start_ind hc (fun off l x => at_off off l -> lo <= off ->
    match x with ROk s o _ => in_buf buf lo o s | _ => True end)).
  - intros; exact I.
  - intros; exact I.
  - intros off b r x _ IH P Hlo. apply IH; [apply (at_off_step off [b]), P|apply le_S, Hlo].
  - intros off b r _ _ P Hlo. pose proof (ref_value_lines_in off [] off (b :: r) P eq_refl) as H.
    destruct (ref_value_lines hc off [] off (b :: r)); [|exact I..].
    eapply in_buf_weaken; [exact Hlo|apply le_n|exact H].
  - intros off e r _ _ _ Hlo. cbn [in_buf length]. split; [exact Hlo|]. split; [lia|reflexivity].
  - intros off e b r x _ _ _ IH P Hlo. apply IH; [apply at_off_step, P|lia].
  - intros off b r _ _ _ _ Hlo. apply vinvalid_in, Hlo.
Qed.

Definition line_slices (x : rline) : list sl := match x with LHeader n v => [n; v] | _ => [] end.

Lemma ref_value_in name lo off l x o r :
  in_buf buf lo off name -> at_off off l -> ref_value hc name off l = ROk x o r ->
  chain buf lo (line_slices x) o.
Proof.
  intros Hn P. unfold ref_value. pose proof (ref_value_start_in off off l P (le_n _)) as Hv.
  destruct (ref_value_start hc off l) as [v o' r'| |]; cbn [rbind]; [|discriminate..]. intros [= <- <- <-].
  destruct (dropped v); cbn [line_slices chain].
  - apply in_buf_le in Hn, Hv. lia.
  - exists off. split; [exact Hn|]. exists o'. split; [exact Hv|apply le_n].
Qed.

Lemma ref_header_line_placed first off l : placed line_slices off l (ref_header_line hc first off l).
Proof.
  apply placed_slices; [apply advances_weaken, ref_header_line_adv|].
  (* unless a header comes out there are no slices, and the claim is Hle *)
  intros x o r H P Hle. revert H.
  apply (ref_header_line_cases hc first off l
           (fun res => res = ROk x o r -> chain buf off (line_slices x) o)); try discriminate.
  - intros o' r' _ [= <- _ _]. exact Hle.
  - intros w r' _ _ [= <- _ _]. exact Hle.
  - intros pre r' _ H. apply ref_invalid_ok in H as (_ & -> & _). exact Hle.
  - intros name w r' Hl _ _ H. rewrite Hl in P. refine (ref_value_in _ off _ _ _ _ _ _ _ H).
    + apply (sub_in _ _ _ _ P). lia.
    + apply (at_off_step _ [58%N]), at_off_step, at_off_step, P.
Qed.

Lemma ref_header_line_upto lo ss first off l x o r :
  at_off off l -> chain buf lo ss off -> ref_header_line hc first off l = ROk x o r ->
  at_off o r /\ chain buf lo (ss ++ line_slices x) o.
Proof.
  intros P C E. pose proof (upto_step P C (ref_header_line_placed first off l)) as U.
  rewrite E in U. exact U.
Qed.

Lemma ref_header_block_chain lo cap : forall fuel hs off l,
  at_off off l -> chain buf lo (hdr_slices hs) off ->
  let res := ref_header_block hc fuel cap hs off l in
  chain buf lo (hdr_slices (snd res)) (lim buf (fst res)).
Proof.
  apply (ref_header_block_ind hc cap (fun _ hs off l res =>
    at_off off l -> chain buf lo (hdr_slices hs) off -> chain buf lo (hdr_slices (snd res)) (lim buf (fst res)))).
  - intros hs off l. apply to_end.
  - intros _ hs off l o r E P C. destruct (ref_header_line_upto _ _ _ _ _ _ _ _ P C E) as [_ U].
    cbn [line_slices] in U. rewrite app_nil_r in U. exact U.
  - intros _ hs off l _. apply to_end.
  - intros _ hs off l e _. apply to_end.
  - intros _ hs off l n v o r _ _. apply to_end.
  - intros _ hs off l o r res E IH P C. destruct (ref_header_line_upto _ _ _ _ _ _ _ _ P C E) as [P' U].
    cbn [line_slices] in U. rewrite app_nil_r in U. exact (IH P' U).
  - intros _ hs off l n v o r res E _ IH P C. destruct (ref_header_line_upto _ _ _ _ _ _ _ _ P C E) as [P' U].
    apply (IH P'). rewrite hdr_slices_app. exact U.
Qed.
End Headers.

Lemma message_chain hc cap ss (x : rres unit) :
  upto 0 ss (fun _ => []) x ->
  let res := ref_tail x hc cap in
  chain buf 0 (ss ++ hdr_slices (snd res)) (lim buf (fst res)).
Proof.
  intros U. destruct x as [u o r| |e]; cbn zeta; cbn [ref_tail].
  2,3: cbn [snd fst hdr_slices flat_map lim]; rewrite app_nil_r; exact U.
  destruct U as [P C]. rewrite app_nil_r in C. apply (chain_app buf _ _ _ o _ C). unfold ref_headers.
  apply (ref_header_block_chain hc o cap); [exact P|exact (le_n o)].
Qed.
End ZC.

Theorem ref_request_chain cf cap buf :
  let r := ref_request cf cap buf in chain buf 0 (req_slices r) (lim buf (rq_status r)).
Proof.
  cbn zeta. rewrite ref_request_tail. unfold req_slices. cbn [rq_start rq_headers rq_status]. rewrite app_assoc.
  pose proof (ref_request_line_upto buf (allow_multiple_spaces_in_request_line_delimiters cf)) as U.
  destruct (ref_request_line _ buf) as [st x]. exact (message_chain buf _ cap _ x U).
Qed.

Theorem ref_response_chain cf cap buf :
  let r := ref_response cf cap buf in chain buf 0 (resp_slices r) (lim buf (rp_status r)).
Proof.
  cbn zeta. rewrite ref_response_tail. unfold resp_slices. cbn [rp_start rp_headers rp_status].
  pose proof (ref_status_line_upto buf (allow_multiple_spaces_in_response_status_delimiters cf)) as U.
  destruct (ref_status_line _ buf) as [st x]. exact (message_chain buf _ cap _ x U).
Qed.

Theorem ref_headers_chain hc cap buf :
  let r := ref_headers hc cap 0 buf in chain buf 0 (hdr_slices (snd r)) (lim buf (fst r)).
Proof.
  cbn zeta. unfold ref_headers. apply ref_header_block_chain; [apply at_off_start|exact (le_n 0)].
Qed.
