(* Proofs/Work.v -- linear work (C20) for the cost copies: every stage function, every scanner loop and the
   call sequences of CostTop.v spend a number of ticks bounded by a constant times the number of bytes they move
   the cursor over, plus a constant.  Potential method: Phi a c = ticks c + a * |rest c| + |tokrev c|, and
   [lin a b k m] says that m run from c ends (Done) in c' with Phi a c' <= Phi a c + b (b may be negative), or
   stops (Partial / Err) having spent ticks <= Phi a c + k.  A byte that moves from the unread part into the
   open token releases a - 1 units, so a loop whose every turn consumes a byte and spends at most a - 1 ticks
   has a bound that does not depend on its fuel; the unit that stays with the byte pays for the one backward
   pass (the trim) over the slice it ends up in. *)
From Coq Require Import List ZArith Lia.
From HV Require Import CursorC CostTop.
From HV.Generated Require Import Cfg CScan CModel CBackends.
Import ListNotations.
Local Open Scope Z_scope.

Definition Phi (a : Z) (c : cur) : Z :=
  Z.of_nat (ticks c) + a * Z.of_nat (length (rest c)) + Z.of_nat (length (tokrev c)).

(* cr: credit handed out with the result (the length of a returned slice: the bytes of the token
   since the last commit are still "paid for" and pay for one later backward pass over them) *)
Definition linc (a b k : Z) {A} (cr : A -> Z) (m : P A) : Prop :=
  forall c, match m c with
            | Done x c' => Phi a c' + cr x <= Phi a c + b
            | Part tk _ => Z.of_nat tk <= Phi a c + k
            | Fail _ tk _ => Z.of_nat tk <= Phi a c + k
            | Fault _ => True
            end.
Definition lin (a b k : Z) {A} (m : P A) : Prop := linc a b k (fun _ : A => 0) m.

Definition sl_len (s : sl) : Z := Z.of_nat (length (sl_bytes s)).
Definition vres_cr (v : vres) : Z := match v with VValue s => sl_len s | VDropped => 0 end.
Definition hstep_cr (h : hstep) : Z := match h with HHeader _ v => sl_len v | _ => 0 end.

Section Lin.
Variable a : Z.
Hypothesis a_pos : 0 <= a.

Lemma Phi_ticks c : Z.of_nat (ticks c) <= Phi a c.
Proof. unfold Phi. nia. Qed.

Lemma linc_weaken {A} b k b' k' (cr : A -> Z) (m : P A) : linc a b k cr m -> b <= b' -> k <= k' -> linc a b' k' cr m.
Proof. intros H Hb Hk c. specialize (H c). destruct (m c); lia. Qed.
Lemma lin_weaken {A} b k b' k' (m : P A) : lin a b k m -> b <= b' -> k <= k' -> lin a b' k' m.
Proof. apply linc_weaken. Qed.
Lemma linc_drop {A} b k (cr : A -> Z) (m : P A) : (forall x, 0 <= cr x) -> linc a b k cr m -> lin a b k m.
Proof. intros Hc H c. specialize (H c). destruct (m c) as [x c'| | |]; auto. specialize (Hc x). lia. Qed.

(* The bound of a sequence is checked, not computed: the bound of the whole is given, and the
   continuation has to make do with what the first program leaves of it.  (Computing it instead
   yields nested maxima, which are dear for lia.)  A credit of the intermediate result is passed on. *)
Lemma linc_bind_cr {A B} b k b1 k1 (cr1 : A -> Z) (cr : B -> Z) (m : P A) (f : A -> P B) :
  linc a b1 k1 cr1 m -> k1 <= k -> (forall x, linc a (b - b1 + cr1 x) (k - b1 + cr1 x) cr (f x)) ->
  linc a b k cr (bind m f).
Proof.
  intros Hm Hk Hf c. unfold bind. specialize (Hm c). destruct (m c) as [x c'|tk tr|e tk tr|flt]; [|lia|lia|exact I].
  specialize (Hf x c'). destruct (f x c'); lia.
Qed.
Lemma linc_bind_to {A B} b k b1 k1 (cr : B -> Z) (m : P A) (f : A -> P B) :
  lin a b1 k1 m -> k1 <= k -> (forall x, linc a (b - b1) (k - b1) cr (f x)) -> linc a b k cr (bind m f).
Proof.
  intros Hm Hk Hf. eapply linc_bind_cr; [exact Hm|exact Hk|]. intros x. cbn beta. rewrite !Z.add_0_r. apply Hf.
Qed.

Lemma lin_ret {A} (x : A) : lin a 0 0 (ret x).
Proof. intros c. cbn. lia. Qed.
Lemma linc_ret {A} (cr : A -> Z) (x : A) : linc a (cr x) 0 cr (ret x).
Proof. intros c. cbn. lia. Qed.
Lemma linc_fail {A} e (cr : A -> Z) : linc a 0 0 cr (@fail A e).
Proof. intros c. cbn. pose proof (Phi_ticks c). lia. Qed.
Lemma lin_fail {A} e : lin a 0 0 (@fail A e).
Proof. apply linc_fail. Qed.
Lemma lin_part {A} : lin a 0 0 (@part A).
Proof. intros c. cbn. pose proof (Phi_ticks c). lia. Qed.
Lemma linc_fault {A} f b k (cr : A -> Z) : linc a b k cr (@fault_ A f).
Proof. intros c. exact I. Qed.
Lemma lin_pos : lin a 0 0 pos.
Proof. intros c. cbn. lia. Qed.
Lemma lin_tick n : lin a (Z.of_nat n) 0 (tick n).
Proof. intros c. unfold tick, Phi. cbn [ticks rest tokrev]. lia. Qed.
Lemma lin_peek : lin a 1 0 peek.
Proof. intros c. unfold peek, tk1, Phi. cbn [ticks rest tokrev]. lia. Qed.
Lemma lin_peek_n n : lin a 1 0 (peek_n n).
Proof. intros c. unfold peek_n, tk1, Phi. cbn [ticks rest tokrev]. lia. Qed.
Lemma lin_peek_ahead n : lin a 1 0 (peek_ahead n).
Proof. intros c. unfold peek_ahead. destruct (drop n (rest c)); [|exact I]. unfold tk1, Phi. cbn [ticks rest tokrev]. lia. Qed.

Lemma rev'_length (l : list N) : length (rev' l) = length l.
Proof. unfold rev'. rewrite <- rev_alt. apply rev_length. Qed.
Lemma drop_length : forall n (l t : list N), drop n l = Some t -> (length t <= length l)%nat.
Proof.
  induction n as [|n IH]; intros l t H; cbn [drop] in H; [injection H as ->; lia|].
  destruct l as [|x l']; [discriminate|]. apply IH in H. cbn [length]. lia.
Qed.
Lemma linc_slice_skip n : linc a 1 0 sl_len (slice_skip n).
Proof.
  intros c. unfold slice_skip. destruct (drop n (tokrev c)) as [t|] eqn:E; [|exact I]. apply drop_length in E.
  unfold commit, Phi, sl_len. cbn [ticks rest tokrev sl_bytes length]. rewrite rev'_length. lia.
Qed.
Lemma sl_len_nonneg s : 0 <= sl_len s.
Proof. unfold sl_len. lia. Qed.
Lemma lin_slice_skip n : lin a 1 0 (slice_skip n).
Proof. eapply linc_drop; [apply sl_len_nonneg|apply linc_slice_skip]. Qed.
Lemma lin_slice : lin a 1 0 slice.
Proof. exact (lin_slice_skip 0). Qed.
Lemma lin_remaining : lin a 0 0 remaining.
Proof. intros c. cbn. lia. Qed.
Lemma lin_next : lin a (2 - a) 1 next.
Proof.
  intros c. unfold next. destruct (rest c) as [|b r] eqn:E; unfold Phi; cbn [ticks rest tokrev]; rewrite ?E; cbn [length]; lia.
Qed.

Lemma shift_length : forall n tk l tk' r, shift n tk l = Some (tk', r) ->
  length l = (n + length r)%nat /\ length tk' = (n + length tk)%nat.
Proof.
  induction n as [|n IH]; intros tk l tk' r H; cbn [shift] in H.
  - injection H as <- <-. split; reflexivity.
  - destruct l as [|x l']; [discriminate|]. apply IH in H as [H1 H2]. cbn [length] in *. lia.
Qed.
Lemma lin_advance n : lin a (1 - (a - 1) * Z.of_nat n) 0 (advance n).
Proof.
  intros c. unfold advance. destruct (shift n (tokrev c) (rest c)) as [[tk r]|] eqn:E; [|exact I].
  apply shift_length in E as [E1 E2]. unfold Phi. cbn [ticks rest tokrev]. rewrite E1, E2. nia.
Qed.
End Lin.

(* advance by an amount that is not a constant: the only nonlinear steps, taken here once *)
Section Advance.
Variable a : Z.
Hypothesis a_one : 1 <= a.

Lemma lin_advance_le n : lin a 1 0 (advance n).
Proof. eapply lin_weaken; [apply lin_advance; lia| |]; nia. Qed.
Lemma lin_advance_pos n : (1 <= n)%nat -> lin a (2 - a) 0 (advance n).
Proof. intros H. eapply lin_weaken; [apply lin_advance; lia| |]; nia. Qed.
(* the block step of every scanner loop: a full block consumed (n = W >= 1) pays for the next
   iteration; anything less ends the loop *)
Lemma lin_block n W b k (loop tail : P unit) : (1 <= W)%nat -> 0 <= k ->
  lin a (b - (2 - a)) (k - (2 - a)) loop -> lin a (b - 1) (k - 1) tail ->
  lin a b k (advance n ;;; if Nat.eqb n W then loop else tail).
Proof.
  intros HW Hk Hl Ht. destruct (Nat.eqb_spec n W) as [->|_].
  - eapply linc_bind_to; [apply lin_advance_pos, HW|exact Hk|intros _; exact Hl].
  - eapply linc_bind_to; [apply lin_advance_le|exact Hk|intros _; exact Ht].
Qed.
End Advance.

(* programs are looked up by name and never unfolded, save the few that only rename another *)
Create HintDb lin discriminated.
#[global] Hint Constants Opaque : lin.
#[global] Hint Transparent skip_empty_lines skip_spaces parse_reason bump : lin.
#[global] Hint Resolve lin_ret lin_fail lin_part lin_pos lin_tick lin_peek lin_peek_n lin_peek_ahead lin_slice lin_slice_skip
  lin_next lin_advance linc_ret : lin.

(* [lstep] checks a given bound by one step along the program: a sequence looks the bound of its first program
   up in the database [lin] (or the context) and leaves the continuation the rest (linc_bind_to); a case split
   checks both branches against the same bound; anything else is compared with its bound in the database
   ([lleaf]).  [lgo] stops at a sequence whose first program has no bound there; the three that pass a credit
   on are such, and are done by hand with linc_bind_cr. *)
Ltac lleaf :=
  lazymatch goal with |- lin _ _ _ _ => eapply lin_weaken | |- _ => eapply linc_weaken end;
  [solve [eauto 3 with lin nocore] | cbn [vres_cr hstep_cr]; lia | cbn [vres_cr hstep_cr]; lia].
Ltac lstep :=
  lazymatch goal with
  | |- linc ?a ?b ?k (fun _ => 0) ?m => change (lin a b k m)
  | |- _ (bind (advance ?n) (fun _ => if Nat.eqb ?n _ then _ else _)) => apply lin_block; [lia|assumption|lia| | ]
  | |- _ (bind (if ?x then _ else _) _) => destruct x
  | |- _ (bind (slice_skip _) (fun v => ret (VValue v))) => lleaf
  | |- _ (bind _ _) => eapply linc_bind_to; [solve [eauto 3 with lin nocore] | lia | intros ?]
  | |- _ (match ?x with _ => _ end) => destruct x
  | |- _ (fault_ _) => apply linc_fault
  | |- _ => lleaf
  end.
Ltac lgo := repeat lstep.

Definition env_lin (a : Z) (E : env) : Prop :=
  (forall f, lin a 8 8 (s_uri E f)) /\ (forall f, lin a 8 8 (s_value E f)) /\ (forall f, lin a 8 8 (s_name E f)).

Section Stages.
Variable a : Z.
(* 25 would do with the bounds below: a trip through the header loop changes the potential by at
   most 24 - a (linc_header_line) plus 1 for the trim beyond its credit, and that must not be
   positive (lin_headers_prog).  32 is the round figure. *)
Hypothesis a_big : 32 <= a.
Let a_pos : 0 <= a. Proof. lia. Qed.
Variable E : env.
Hypothesis HE : env_lin a E.
Variable fuel : nat.
Let Huri := proj1 HE fuel.
Let Hval := proj1 (proj2 HE) fuel.
Let Hname := proj2 (proj2 HE) fuel.

Lemma lin_expect p e : lin a (2 - a) 2 (expect p e).
Proof. unfold expect. lgo. Qed.
Hint Resolve lin_expect : lin.
Lemma lin_space e : lin a (3 - a) 2 (space e).
Proof. unfold space. lgo. Qed.
Lemma lin_newline : lin a 2 2 newline.
Proof. unfold newline. lgo. Qed.
Lemma lin_skip_empty_lines_f : forall f, lin a 2 2 (skip_empty_lines_f f).
Proof. induction f as [|f IH]; cbn [skip_empty_lines_f]; lgo. Qed.
Lemma lin_skip_spaces_f : forall f, lin a 2 2 (skip_spaces_f f).
Proof. induction f as [|f IH]; cbn [skip_spaces_f]; lgo. Qed.
Hint Resolve lin_space lin_newline lin_skip_empty_lines_f lin_skip_spaces_f : lin.

Lemma lin_parse_version : lin a 2 4 parse_version.
Proof. unfold parse_version. lgo. Qed.
Lemma lin_parse_token_f : forall f, lin a 3 3 (parse_token_f E f).
Proof. induction f as [|f IH]; cbn [parse_token_f]; lgo. Qed.
Hint Resolve lin_parse_version lin_parse_token_f : lin.
Lemma lin_parse_token : lin a 3 3 (parse_token E fuel).
Proof. unfold parse_token. lgo. Qed.
Hint Resolve lin_parse_token : lin.
Lemma lin_parse_method : lin a 5 5 (parse_method E fuel).
Proof. unfold parse_method. lgo. Qed.
Lemma lin_parse_uri : lin a 12 12 (parse_uri E fuel).
Proof. unfold parse_uri. lgo. Qed.
Lemma lin_parse_code : lin a 0 4 parse_code.
Proof. unfold parse_code. lgo. Qed.
Lemma lin_parse_reason_f : forall f o, lin a 4 4 (parse_reason_f f o).
Proof. induction f as [|f IH]; intros o; cbn [parse_reason_f]; lgo. Qed.
Hint Resolve lin_parse_method lin_parse_uri lin_parse_code lin_parse_reason_f : lin.

Variable hc : hcfg.

Lemma lin_skip_invalid_line : forall f b e, lin a 2 2 (skip_invalid_line f b e).
Proof. induction f as [|f IH]; intros b e; cbn [skip_invalid_line]; lgo. Qed.
Hint Resolve lin_skip_invalid_line : lin.
Lemma lin_handle_invalid b e : lin a 3 3 (handle_invalid fuel hc b e).
Proof. unfold handle_invalid. lgo. Qed.
Lemma lin_skip_ws_peek : forall f, lin a 1 2 (skip_ws_peek f).
Proof. induction f as [|f IH]; cbn [skip_ws_peek]; lgo. Qed.
Lemma lin_after_name_ws : forall f b, lin a 1 1 (after_name_ws f b).
Proof. induction f as [|f IH]; intros b; cbn [after_name_ws]; lgo. Qed.
Lemma lin_fold_check : lin a 1 1 (fold_check hc).
Proof. unfold fold_check. lgo. Qed.
Hint Resolve lin_handle_invalid lin_skip_ws_peek lin_after_name_ws lin_fold_check : lin.

Lemma linc_value_slice n : linc a 1 1 vres_cr (v <- slice_skip n ;; ret (VValue v)).
Proof.
  eapply linc_bind_cr; [apply linc_slice_skip|lia|intros v]. pose proof (sl_len_nonneg v). lleaf.
Qed.
Lemma linc_empty_value : linc a 1 0 vres_cr (fun c0 => Done (VValue (Sub (pre c0) [])) (commit c0)).
Proof. intros c. unfold commit, Phi, vres_cr, sl_len. cbn [ticks rest tokrev sl_bytes length]. lia. Qed.
Hint Resolve linc_value_slice linc_empty_value : lin.

Lemma linc_value_lines : forall f, linc a 4 12 vres_cr (value_lines E fuel hc f).
Proof. induction f as [|f IH]; cbn [value_lines]; lgo. Qed.
Hint Resolve linc_value_lines : lin.
Lemma linc_ws_after_colon : forall f, linc a 4 12 vres_cr (ws_after_colon E fuel hc f).
Proof. induction f as [|f IH]; cbn [ws_after_colon]; lgo. Qed.

(* [lgo] stops at `v <- ws_after_colon fuel ;; ...`, whose credit goes out with the header *)
Lemma linc_header_line first : linc a (24 - a) 32 hstep_cr (header_line E fuel hc first).
Proof.
  unfold header_line. lgo.
  all: eapply linc_bind_cr; [apply linc_ws_after_colon|lia|intros v].
  all: destruct v as [|v]; [|pose proof (sl_len_nonneg v)]; lleaf.
Qed.

Lemma trim_cost_le v : Z.of_nat (trim_cost v) <= 1 + sl_len v.
Proof. unfold trim_cost, sl_len. lia. Qed.

(* the credit of a header's value pays for its trim *)
Lemma lin_headers_prog cap : forall f nh, lin a 0 34 (headers_prog E fuel f hc cap nh).
Proof.
  induction f as [|f IH]; intros nh; cbn [headers_prog]; [apply linc_fault|].
  eapply linc_bind_cr; [apply linc_header_line|lia|intros h].
  destruct h as [| |name value]; cbn [hstep_cr]; [| |pose proof (trim_cost_le value); pose proof (sl_len_nonneg value)]; lgo.
Qed.
Hint Resolve lin_headers_prog : lin.

Lemma lin_opt_spaces ms : lin a 2 2 (opt_spaces fuel ms).
Proof. unfold opt_spaces. lgo. Qed.
Hint Resolve lin_opt_spaces : lin.

Lemma lin_request_prog ms cap : lin a 40 80 (request_prog E fuel ms hc cap).
Proof. unfold request_prog. lgo. Qed.

Lemma lin_after_code ms : lin a 8 8 (after_code fuel ms).
Proof. unfold after_code. lgo. Qed.
Hint Resolve lin_after_code : lin.

Lemma lin_response_prog ms cap : lin a 40 80 (response_prog E fuel ms hc cap).
Proof. unfold response_prog. lgo. Qed.
End Stages.

(* Every provider of the three scanner entry points builds them from swar_loop and swar_name_loop,
   bare or as the fallback of a simd_loop: what holds of the former (P0) and is carried over by the
   latter (P1) holds of the scanners of every backend. *)
Lemma env_of_scheme (P0 P1 : P unit -> Prop) W b :
  (forall kernel class f, P0 (swar_loop f W kernel class)) ->
  (forall class f, P0 (swar_name_loop f W class)) ->
  (forall G K R kernel fb f, (1 <= R)%nat -> P0 fb -> P1 (simd_loop f G K R kernel fb)) ->
  (forall m, P0 m -> P1 m) ->
  (forall f, P1 (s_uri (env_of W b) f)) /\ (forall f, P1 (s_value (env_of W b) f)) /\ (forall f, P1 (s_name (env_of W b) f)).
Proof.
  intros Hs Hn Hd Hw.
  assert (Hu : forall f, P0 (swar_uri W f)) by (intros f; apply Hs).
  assert (Hv : forall f, P0 (swar_value W f)) by (intros f; apply Hs).
  assert (Hm : forall f, P0 (swar_name W f)) by (intros f; apply Hn).
  pose (all3 := fun e : env =>
          (forall f, P1 (s_uri e f)) /\ (forall f, P1 (s_value e f)) /\ (forall f, P1 (s_name e f))).
  assert (Hswar : all3 (env_swar W)).
  { split; [|split]; intros f; apply Hw; [apply Hu|apply Hv|apply Hm]. }
  assert (Hsse : all3 (env_sse42 W)).   (* uri and value are `simd_loop`s, the name scanner is the bare one *)
  { split; [|split]; intros f.
    - apply Hd; [lia|apply Hu].
    - apply Hd; [lia|apply Hv].
    - apply Hw, Hm. }
  assert (Havx : all3 (env_avx2 W)).
  { split; [|split]; intros f.
    - apply Hd; [lia|apply Hu].
    - apply Hd; [lia|apply Hv].
    - apply Hw, Hm. }
  assert (Hneon : all3 (env_neon W)).   (* all three are `simd_loop`s *)
  { split; [|split]; intros f.
    - apply Hd; [lia|apply Hu].
    - apply Hd; [lia|apply Hv].
    - apply Hd; [lia|apply Hm]. }
  destruct b as [| | | |id]; [exact Hswar|exact Hsse|exact Havx|exact Hneon|].
  cbn [env_of]. unfold env_runtime.
  destruct (N.eqb id RT_AVX2); [exact Havx|]. destruct (N.eqb id RT_SSE42); [exact Hsse|exact Hswar].
Qed.

Section Loops.
Variable a : Z.
Hypothesis a_big : 32 <= a.
Let a_pos : 0 <= a. Proof. lia. Qed.

Lemma lin_swar_loop W kernel class : (1 <= W)%nat -> forall f, lin a 3 3 (swar_loop f W kernel class).
Proof. intros HW. induction f as [|f IH]; cbn [swar_loop]; cbv zeta; lgo. Qed.

Lemma lin_swar_name_loop W class : (1 <= W)%nat -> forall f, lin a 2 2 (swar_name_loop f W class).
Proof.
  intros HW. induction f as [|f IH]; cbn [swar_name_loop]; cbv zeta; lgo.
  intros c. pose proof (lin_advance_le a ltac:(lia) (first_bad class (rest c)) c) as H.
  destruct (advance _ c); lia.
Qed.

Lemma lin_simd_loop G K R kernel fallback : (1 <= R)%nat -> lin a 3 3 fallback ->
  forall f, lin a 4 4 (simd_loop f G K R kernel fallback).
Proof. intros HR Hfb. induction f as [|f IH]; cbn [simd_loop]; cbv zeta; lgo. Qed.

Theorem env_of_lin W b : (1 <= W)%nat -> env_lin a (env_of W b).
Proof.
  intros HW. apply (env_of_scheme (lin a 3 3) (lin a 8 8)).
  - intros kernel class f. apply lin_swar_loop; assumption.
  - intros class f. eapply lin_weaken; [apply lin_swar_name_loop; assumption| |]; lia.
  - intros G K R kernel fb f HR Hfb. eapply lin_weaken; [apply lin_simd_loop; eassumption| |]; lia.
  - intros m H. eapply lin_weaken; [exact H| |]; lia.
Qed.

Lemma lin_chunk_loop dbg : forall f size ics iext count, lin a 4 4 (chunk_loop dbg f size ics iext count).
Proof. induction f as [|f IH]; intros size ics iext count; cbn [chunk_loop]; cbv zeta; lgo. Qed.
End Loops.

(* Travel: the cursor only moves forward, over each byte once.  `bud c`, the bytes moved over so far plus the
   bytes still unread, is conserved by every operation (`cons`); it starts as the length of the buffer. *)
Local Open Scope nat_scope.
Definition bud (c : cur) : nat := travel c + length (rest c).
Definition cons {A} (m : P A) : Prop :=
  forall c, match m c with
            | Done _ c' => bud c' = bud c
            | Part _ tr => tr <= bud c
            | Fail _ _ tr => tr <= bud c
            | Fault _ => True
            end.

Lemma cons_ret {A} (x : A) : cons (ret x). Proof. intros c. reflexivity. Qed.
Lemma cons_fail {A} e : cons (@fail A e). Proof. intros c. unfold bud. cbn. lia. Qed.
Lemma cons_part {A} : cons (@part A). Proof. intros c. unfold bud. cbn. lia. Qed.
Lemma cons_fault {A} f : cons (@fault_ A f). Proof. intros c. exact I. Qed.
Lemma cons_pos : cons pos. Proof. intros c. reflexivity. Qed.
Lemma cons_tick n : cons (tick n). Proof. intros c. reflexivity. Qed.
Lemma cons_peek : cons peek. Proof. intros c. reflexivity. Qed.
Lemma cons_peek_n n : cons (peek_n n). Proof. intros c. reflexivity. Qed.
Lemma cons_peek_ahead n : cons (peek_ahead n).
Proof. intros c. unfold peek_ahead. destruct (drop n (rest c)); [reflexivity|exact I]. Qed.
Lemma cons_slice : cons slice. Proof. intros c. reflexivity. Qed.
Lemma cons_slice_skip n : cons (slice_skip n).
Proof. intros c. unfold slice_skip. destruct (drop n (tokrev c)); [reflexivity|exact I]. Qed.
Lemma cons_remaining : cons remaining. Proof. intros c. reflexivity. Qed.
Lemma cons_next : cons next.
Proof. intros c. unfold next, bud. destruct (rest c) as [|b r] eqn:E; cbn [travel rest]; rewrite ?E; cbn [length]; lia. Qed.
Lemma cons_advance n : cons (advance n).
Proof.
  intros c. unfold advance. destruct (shift n (tokrev c) (rest c)) as [[tk r]|] eqn:E; [|exact I].
  apply shift_length in E as [E1 _]. unfold bud. cbn [travel rest]. lia.
Qed.
Lemma cons_empty_value : cons (fun c0 => Done (VValue (Sub (pre c0) [])) (commit c0)).
Proof. intros c. reflexivity. Qed.
Lemma cons_bind {A B} (m : P A) (f : A -> P B) : cons m -> (forall x, cons (f x)) -> cons (bind m f).
Proof.
  intros Hm Hf c. unfold bind. specialize (Hm c). destruct (m c) as [x c'|tk tr|e tk tr|flt]; auto.
  specialize (Hf x c'). destruct (f x c'); lia.
Qed.

Create HintDb cons discriminated.
#[global] Hint Constants Opaque : cons.
#[global] Hint Transparent skip_empty_lines skip_spaces parse_reason bump : cons.
#[global] Hint Resolve cons_ret cons_fail cons_part cons_fault cons_pos cons_tick cons_peek cons_peek_n cons_peek_ahead cons_slice
  cons_slice_skip cons_next cons_advance cons_empty_value : cons.

(* [cons] is kept by sequencing and case splits; the leaves are in the database [cons] *)
Ltac cstep :=
  lazymatch goal with
  | |- cons (bind _ _) => apply cons_bind; [|intros ?]
  | |- cons (match ?x with _ => _ end) => destruct x
  | |- cons _ => solve [eauto 2 with cons nocore]
  end.
Ltac cgo := repeat cstep.

Lemma cons_expect p e : cons (expect p e). Proof. unfold expect. cgo. Qed.
#[global] Hint Resolve cons_expect : cons.
Lemma cons_space e : cons (space e). Proof. unfold space. cgo. Qed.
Lemma cons_newline : cons newline. Proof. unfold newline. cgo. Qed.
Lemma cons_skip_empty_lines_f : forall f, cons (skip_empty_lines_f f).
Proof. induction f as [|f IH]; cbn [skip_empty_lines_f]; cgo. Qed.
Lemma cons_skip_spaces_f : forall f, cons (skip_spaces_f f).
Proof. induction f as [|f IH]; cbn [skip_spaces_f]; cgo. Qed.
Lemma cons_parse_version : cons parse_version. Proof. unfold parse_version. cgo. Qed.
Lemma cons_parse_code : cons parse_code. Proof. unfold parse_code. cgo. Qed.
Lemma cons_parse_reason_f : forall f o, cons (parse_reason_f f o).
Proof. induction f as [|f IH]; intros o; cbn [parse_reason_f]; cgo. Qed.
Lemma cons_skip_invalid_line : forall f b e, cons (skip_invalid_line f b e).
Proof. induction f as [|f IH]; intros b e; cbn [skip_invalid_line]; cgo. Qed.
Lemma cons_skip_ws_peek : forall f, cons (skip_ws_peek f).
Proof. induction f as [|f IH]; cbn [skip_ws_peek]; cgo. Qed.
Lemma cons_after_name_ws : forall f b, cons (after_name_ws f b).
Proof. induction f as [|f IH]; intros b; cbn [after_name_ws]; cgo. Qed.
#[global] Hint Resolve cons_space cons_newline cons_skip_empty_lines_f cons_skip_spaces_f cons_parse_version cons_parse_code
  cons_parse_reason_f cons_skip_invalid_line cons_skip_ws_peek cons_after_name_ws : cons.

Definition env_cons (E : env) : Prop :=
  (forall f, cons (s_uri E f)) /\ (forall f, cons (s_value E f)) /\ (forall f, cons (s_name E f)).

Section ConsStages.
Variable E : env.
Hypothesis HE : env_cons E.
Variable fuel : nat.
Let Huri := proj1 HE fuel.
Let Hval := proj1 (proj2 HE) fuel.
Let Hname := proj2 (proj2 HE) fuel.
Variable hc : hcfg.

Lemma cons_parse_token_f : forall f, cons (parse_token_f E f).
Proof. induction f as [|f IH]; cbn [parse_token_f]; cgo. Qed.
Hint Resolve cons_parse_token_f : cons.
Lemma cons_parse_token : cons (parse_token E fuel). Proof. unfold parse_token. cgo. Qed.
Hint Resolve cons_parse_token : cons.
Lemma cons_parse_method : cons (parse_method E fuel). Proof. unfold parse_method. cgo. Qed.
Lemma cons_parse_uri : cons (parse_uri E fuel). Proof. unfold parse_uri. cgo. Qed.
Lemma cons_handle_invalid b e : cons (handle_invalid fuel hc b e). Proof. unfold handle_invalid. cgo. Qed.
Lemma cons_fold_check : cons (fold_check hc). Proof. unfold fold_check. cgo. Qed.
Hint Resolve cons_parse_method cons_parse_uri cons_handle_invalid cons_fold_check : cons.
Lemma cons_value_lines : forall f, cons (value_lines E fuel hc f).
Proof. induction f as [|f IH]; cbn [value_lines]; cgo. Qed.
Hint Resolve cons_value_lines : cons.
Lemma cons_ws_after_colon : forall f, cons (ws_after_colon E fuel hc f).
Proof. induction f as [|f IH]; cbn [ws_after_colon]; cgo. Qed.
Hint Resolve cons_ws_after_colon : cons.
Lemma cons_header_line first : cons (header_line E fuel hc first). Proof. unfold header_line. cgo. Qed.
Hint Resolve cons_header_line : cons.
Lemma cons_headers_prog cap : forall f nh, cons (headers_prog E fuel f hc cap nh).
Proof. induction f as [|f IH]; intros nh; cbn [headers_prog]; cgo. Qed.
Lemma cons_opt_spaces ms : cons (opt_spaces fuel ms). Proof. unfold opt_spaces. cgo. Qed.
Hint Resolve cons_headers_prog cons_opt_spaces : cons.
Lemma cons_request_prog ms cap : cons (request_prog E fuel ms hc cap). Proof. unfold request_prog. cgo. Qed.
Lemma cons_after_code ms : cons (after_code fuel ms). Proof. unfold after_code. cgo. Qed.
Hint Resolve cons_after_code : cons.
Lemma cons_response_prog ms cap : cons (response_prog E fuel ms hc cap). Proof. unfold response_prog. cgo. Qed.
End ConsStages.

Lemma cons_chunk_loop dbg : forall f size ics iext count, cons (chunk_loop dbg f size ics iext count).
Proof. induction f as [|f IH]; intros size ics iext count; cbn [chunk_loop]; cbv zeta; cgo. Qed.

Lemma cons_swar_loop W kernel class : forall f, cons (swar_loop f W kernel class).
Proof. induction f as [|f IH]; cbn [swar_loop]; cbv zeta; cgo. Qed.
Lemma cons_swar_name_loop W class : forall f, cons (swar_name_loop f W class).
Proof.
  induction f as [|f IH]; cbn [swar_name_loop]; cbv zeta; cgo.
  intros c. apply (cons_advance (first_bad class (rest c)) c).
Qed.
Lemma cons_simd_loop G K R kernel fallback : cons fallback -> forall f, cons (simd_loop f G K R kernel fallback).
Proof. intros Hf. induction f as [|f IH]; cbn [simd_loop]; cbv zeta; cgo. Qed.

Theorem env_of_cons W b : env_cons (env_of W b).
Proof.
  apply (env_of_scheme cons cons).
  - intros kernel class f. apply cons_swar_loop.
  - intros class f. apply cons_swar_name_loop.
  - intros G K R kernel fb f _ Hfb. apply cons_simd_loop, Hfb.
  - intros m H. exact H.
Qed.
