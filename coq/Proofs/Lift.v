(* Lift.v -- from operations to programs.  TieIter.v shows, operation by operation, that the methods of `Bytes`
   translated from src/iter.rs (Generated/Iter.v: three addresses, every `*p` / `add` / `sub` / `from_raw_parts` a
   checked step) compute what the suffix-list operations of Cursor.v compute.  Here that is lifted to the programs
   translated from src/lib.rs: `bP p` / `bI m` is a syntax tree for p / m, a Coq function of the values bound so far
   (`if` / `match` / `let` are Coq's own), built by a tactic that looks only at the shape of the term
   (Proofs/LiftLib.v); `cP d` / `cI d` is the address-level program read off a tree, every primitive operation
   replaced by the translated iter.rs method; `lift_sound`: from the three addresses of a cursor c it does exactly
   what the cursor-level program does from c, a Fault against a Fault.  So, with the no-fault theorems of
   Thm/C01.v, the address-level run of a parse executes no checked pointer operation outside [B, B + length data). *)
From Coq Require Import List NArith Bool Arith.
From HV Require Import Cursor Ptr Imp ImpLib.
From HV.Generated Require Import Iter.
From HV.Proofs Require Import TieIter.
Import ListNotations.

Inductive qout (A : Type) :=
| QDone (a : A) (s : pst)
| QPart
| QFail (e : err)
| QFault (f : fault).
Arguments QDone {A}. Arguments QPart {A}. Arguments QFail {A}. Arguments QFault {A}.
Definition QP (A : Type) := pst -> qout A.

Definition qp_ret {A} (a : A) : QP A := fun s => QDone a s.
Definition qp_bind {A C} (m : QP A) (k : A -> QP C) : QP C := fun s =>
  match m s with
  | QDone a s' => k a s'
  | QPart => QPart
  | QFail e => QFail e
  | QFault f => QFault f
  end.

Section ImpQ.
Context {L R Bk : Type}.
Inductive qires (A : Type) :=
| QIDone (a : A) (l : L) (s : pst)
| QIPart (l : L)
| QIFail (e : err) (l : L)
| QIFault (f : fault) (l : L)
| QIExc (x : ctl R Bk) (l : L) (s : pst).
Arguments QIDone {A}. Arguments QIPart {A}. Arguments QIFail {A}. Arguments QIFault {A}. Arguments QIExc {A}.
Definition QI (A : Type) := L -> pst -> qires A.

Definition qi_ret {A} (a : A) : QI A := fun l s => QIDone a l s.
Definition qi_bind {A C} (m : QI A) (k : A -> QI C) : QI C := fun l s =>
  match m l s with
  | QIDone a l' s' => k a l' s'
  | QIPart l' => QIPart l'
  | QIFail e l' => QIFail e l'
  | QIFault f l' => QIFault f l'
  | QIExc x l' s' => QIExc x l' s'
  end.
Definition qi_lift {A} (p : QP A) : QI A := fun l s =>
  match p s with
  | QDone a s' => QIDone a l s'
  | QPart => QIPart l
  | QFail e => QIFail e l
  | QFault f => QIFault f l
  end.
Definition qi_get : QI L := fun l s => QIDone l l s.
Definition qi_set (f : L -> L) : QI unit := fun l s => QIDone tt (f l) s.
Definition qi_part {A} : QI A := fun l _ => QIPart l.
Definition qi_fail {A} (e : err) : QI A := fun l _ => QIFail e l.
Definition qi_fault {A} (f : fault) : QI A := fun l _ => QIFault f l.
Definition qi_throw {A} (x : ctl R Bk) : QI A := fun l s => QIExc x l s.
Fixpoint qi_loop (f : nat) (lbl : nat) (body : QI unit) : QI Bk :=
  match f with
  | O => qi_fault OutOfFuel
  | S f' => fun l s =>
      match body l s with
      | QIDone _ l' s' => qi_loop f' lbl body l' s'
      | QIExc (Cnt k) l' s' => if Nat.eqb k lbl then qi_loop f' lbl body l' s' else QIExc (Cnt k) l' s'
      | QIExc (Brk k v) l' s' => if Nat.eqb k lbl then QIDone v l' s' else QIExc (Brk k v) l' s'
      | QIExc (Ret r) l' s' => QIExc (Ret r) l' s'
      | QIPart l' => QIPart l'
      | QIFail e l' => QIFail e l'
      | QIFault f l' => QIFault f l'
      end
  end.
Definition qi_fun (m : QI R) : QI R := fun l s =>
  match m l s with
  | QIExc (Ret r) l' s' => QIDone r l' s'
  | QIExc _ l' _ => QIFault Unreachable l'
  | other => other
  end.
Definition qi_run (m : QI R) (l0 : L) : QP R := fun s =>
  match qi_fun m l0 s with
  | QIDone a _ s' => QDone a s'
  | QIPart _ => QPart
  | QIFail e _ => QFail e
  | QIFault f _ => QFault f
  | QIExc _ _ _ => QFault Unreachable
  end.
End ImpQ.
Arguments QIDone {L R Bk A}. Arguments QIPart {L R Bk A}. Arguments QIFail {L R Bk A}.
Arguments QIFault {L R Bk A}. Arguments QIExc {L R Bk A}.
Arguments QI : clear implicits.
Arguments qires : clear implicits.

Definition qi_sub {L R Bk L2 R2 B2} (body : QI L2 R2 B2 R2) (init : L -> L2) (fin : L2 -> L -> L)
  : QI L R Bk R2 := fun l s =>
  match qi_fun body (init l) s with
  | QIDone n lh s' => QIDone n (fin lh l) s'
  | QIPart lh => QIPart (fin lh l)
  | QIFail e lh => QIFail e (fin lh l)
  | QIFault f lh => QIFault f (fin lh l)
  | QIExc _ lh _ => QIFault Unreachable (fin lh l)
  end.

Definition qi_sub_catch {L R Bk L2 R2 B2} (body : QI L2 R2 B2 R2) (init : L -> L2) (fin : L2 -> L -> L)
  : QI L R Bk (rval R2) := fun l s =>
  match qi_fun body (init l) s with
  | QIDone n lh s' => QIDone (RComplete n) (fin lh l) s'
  | QIPart lh => QIDone RPartial (fin lh l) s
  | QIFail e lh => QIDone (RErr e) (fin lh l) s
  | QIFault f lh => QIFault f (fin lh l)
  | QIExc _ lh _ => QIFault Unreachable (fin lh l)
  end.

Section Prims.
Variable m : pmem.

Definition of_q {A A'} (conv : A' -> A) (q : Q A') : QP A := fun s =>
  match q m s with PDone a s' => QDone (conv a) s' | PFault f => QFault f end.

Definition a_peek : QP (option N) := of_q (fun x => x) i_peek.
Definition a_next_opt : QP (option N) := of_q (fun x => x) i_next.
Definition a_advance (n : nat) : QP unit := of_q (fun x => x) (i_advance n).
Definition a_bump : QP unit := of_q (fun x => x) i_bump.
Definition a_pos : QP nat := of_q (fun x => x) i_pos.
Definition a_remaining : QP nat := of_q (fun x => x) i_len.
Definition a_peek_ahead (n : nat) : QP (option N) := of_q (fun x => x) (i_peek_ahead n).
Definition a_slice : QP sl := of_q (read_slice m) i_slice.
Definition a_slice_skip (k : nat) : QP sl := of_q (read_slice m) (i_slice_skip k).
Definition a_peek_n (n : nat) : QP (option (list N)) :=
  of_q (option_map (fun pl => sl_bytes (read_slice m pl))) (i_peek_n n).
(* `bytes.as_ref().as_ptr() as usize`, as an offset from the base address *)
Definition a_addr : QP nat := of_q (fun pl : nat * nat => fst pl - pm_base m) i_as_ref.
(* `bytes.as_ref()` as a byte string *)
Definition a_rest_bytes : QP (list N) := of_q (fun pl => sl_bytes (read_slice m pl)) i_as_ref.
(* a K-byte vector load from `bytes.as_ref().as_ptr()` *)
Definition a_load_block (K : nat) : QP (list N) :=
  of_q (fun pl => sl_bytes (read_slice m pl)) (load_q K).
End Prims.

Section Lift.
Variable B : nat.
Variable data : list N.
Let m := mkpmem B data.

Definition simP {A} (q : QP A) (p : P A) : Prop :=
  forall c, repr data c ->
  match p c with
  | Done a c' => q (pst_of B c) = QDone a (pst_of B c') /\ repr data c'
  | Part => q (pst_of B c) = QPart
  | Fail e => q (pst_of B c) = QFail e
  | Fault _ => exists f, q (pst_of B c) = QFault f
  end.

Definition simI {L R Bk A} (q : QI L R Bk A) (p : I L R Bk A) : Prop :=
  forall l c, repr data c ->
  match p l c with
  | IDone a l' c' => q l (pst_of B c) = QIDone a l' (pst_of B c') /\ repr data c'
  | IPart l' => q l (pst_of B c) = QIPart l'
  | IFail e l' => q l (pst_of B c) = QIFail e l'
  | IFault _ l' => exists f, q l (pst_of B c) = QIFault f l'
  | IExc x l' c' => q l (pst_of B c) = QIExc x l' (pst_of B c') /\ repr data c'
  end.

Inductive bP : forall A : Type, P A -> Type :=
| bP_ret A (a : A) : bP A (ret a)
| bP_bind A C (p : P A) (k : A -> P C) : bP A p -> (forall a, bP C (k a)) -> bP C (bind p k)
| bP_part A : bP A part
| bP_fail A e : bP A (fail e)
| bP_fault A f : bP A (fault_ f)
| bP_peek : bP _ peek
| bP_next_opt : bP _ next_opt
| bP_advance n : bP _ (advance n)
| bP_bump : bP _ bump
| bP_pos : bP _ pos
| bP_addr : bP _ addr
| bP_remaining : bP _ remaining
| bP_peek_ahead n : bP _ (peek_ahead n)
| bP_slice : bP _ slice
| bP_slice_skip k : bP _ (slice_skip k)
| bP_peek_n n : bP _ (peek_n n)
| bP_rest_bytes : bP _ rest_bytes
| bP_load_block K : bP _ (load_block K)
| bP_irun L R Bk (body : I L R Bk R) l0 : bI L R Bk R body -> bP R (irun body l0)
(* a computation that comes with its own address-level implementation (a scanner of the environment) *)
| bP_ext A (p : P A) (q : QP A) : simP q p -> bP A p
| bP_eq A (p p' : P A) : (forall c, p c = p' c) -> bP A p -> bP A p'
with bI : forall L R Bk A : Type, I L R Bk A -> Type :=
| bI_ret L R Bk A (a : A) : bI L R Bk A (iret a)
| bI_bind L R Bk A C (p : I L R Bk A) (k : A -> I L R Bk C) :
    bI L R Bk A p -> (forall a, bI L R Bk C (k a)) -> bI L R Bk C (ibind p k)
| bI_lift L R Bk A (p : P A) : bP A p -> bI L R Bk A (ilift p)
| bI_get L R Bk : bI L R Bk L iget
| bI_set L R Bk f : bI L R Bk unit (iset f)
| bI_part L R Bk A : bI L R Bk A ipart
| bI_fail L R Bk A e : bI L R Bk A (ifail e)
| bI_fault L R Bk A f : bI L R Bk A (ifault f)
| bI_throw L R Bk A x : bI L R Bk A (ithrow x)
| bI_guard L R Bk b : bI L R Bk unit (iguard b)
| bI_guard_idx L R Bk b : bI L R Bk unit (iguard_idx b)
| bI_return L R Bk A r : bI L R Bk A (ireturn r)
| bI_loop L R Bk f lbl body : bI L R Bk unit body -> bI L R Bk Bk (iloop f lbl body)
| bI_fun L R Bk body : bI L R Bk R body -> bI L R Bk R (ifun body)
| bI_sub L R Bk L2 R2 B2 (body : I L2 R2 B2 R2) (init : L -> L2) (fin : L2 -> L -> L) :
    bI L2 R2 B2 R2 body -> bI L R Bk R2 (isub body init fin)
| bI_sub_catch L R Bk L2 R2 B2 (body : I L2 R2 B2 R2) (init : L -> L2) (fin : L2 -> L -> L) :
    bI L2 R2 B2 R2 body -> bI L R Bk (rval R2) (isub_catch body init fin).

Fixpoint cP {A} {p : P A} (d : bP A p) : QP A :=
  match d with
  | bP_ret _ a => qp_ret a
  | bP_bind _ _ _ _ d1 d2 => qp_bind (cP d1) (fun a => cP (d2 a))
  | bP_part _ => fun _ => QPart
  | bP_fail _ e => fun _ => QFail e
  | bP_fault _ f => fun _ => QFault f
  | bP_peek => a_peek m
  | bP_next_opt => a_next_opt m
  | bP_advance n => a_advance m n
  | bP_bump => a_bump m
  | bP_pos => a_pos m
  | bP_addr => a_addr m
  | bP_remaining => a_remaining m
  | bP_peek_ahead n => a_peek_ahead m n
  | bP_slice => a_slice m
  | bP_slice_skip k => a_slice_skip m k
  | bP_peek_n n => a_peek_n m n
  | bP_rest_bytes => a_rest_bytes m
  | bP_load_block K => a_load_block m K
  | bP_irun _ _ _ _ l0 d1 => qi_run (cI d1) l0
  | bP_ext _ _ q _ => q
  | bP_eq _ _ _ _ d1 => cP d1
  end
with cI {L R Bk A} {p : I L R Bk A} (d : bI L R Bk A p) : QI L R Bk A :=
  match d with
  | bI_ret _ _ _ _ a => qi_ret a
  | bI_bind _ _ _ _ _ _ _ d1 d2 => qi_bind (cI d1) (fun a => cI (d2 a))
  | bI_lift _ _ _ _ _ d1 => qi_lift (cP d1)
  | bI_get _ _ _ => qi_get
  | bI_set _ _ _ f => qi_set f
  | bI_part _ _ _ _ => qi_part
  | bI_fail _ _ _ _ e => qi_fail e
  | bI_fault _ _ _ _ f => qi_fault f
  | bI_throw _ _ _ _ x => qi_throw x
  | bI_guard _ _ _ b => if b then qi_ret tt else qi_fault ArithOverflow
  | bI_guard_idx _ _ _ b => if b then qi_ret tt else qi_fault LoadOOB
  | bI_return _ _ _ _ r =>
      match r with RComplete a => qi_throw (Ret a) | RPartial => qi_part | RErr e => qi_fail e end
  | bI_loop _ _ _ f lbl _ d1 => qi_loop f lbl (cI d1)
  | bI_fun _ _ _ _ d1 => qi_fun (cI d1)
  | bI_sub _ _ _ _ _ _ _ init fin d1 => qi_sub (cI d1) init fin
  | bI_sub_catch _ _ _ _ _ _ _ init fin d1 => qi_sub_catch (cI d1) init fin
  end.

Inductive RP {A} : out A -> qout A -> Prop :=
| RP_done a c : repr data c -> RP (Done a c) (QDone a (pst_of B c))
| RP_part : RP Part QPart
| RP_fail e : RP (Fail e) (QFail e)
| RP_fault f f' : RP (Fault f) (QFault f').
Inductive RI {L R Bk A} : ires L R Bk A -> qires L R Bk A -> Prop :=
| RI_done a l c : repr data c -> RI (IDone a l c) (QIDone a l (pst_of B c))
| RI_part l : RI (IPart l) (QIPart l)
| RI_fail e l : RI (IFail e l) (QIFail e l)
| RI_fault f f' l : RI (IFault f l) (QIFault f' l)
| RI_exc x l c : repr data c -> RI (IExc x l c) (QIExc x l (pst_of B c)).

Lemma simP_iff A (q : QP A) (p : P A) : simP q p <-> forall c, repr data c -> RP (p c) (q (pst_of B c)).
Proof.
  split; intros H c Hc; specialize (H c Hc).
  - destruct (p c) as [a c'| |e|f].
    + destruct H as [-> Hc']. constructor. exact Hc'.
    + rewrite H. constructor.
    + rewrite H. constructor.
    + destruct H as [f' ->]. constructor.
  - destruct H; eauto.
Qed.
Lemma simI_iff L R Bk A (q : QI L R Bk A) (p : I L R Bk A) :
  simI q p <-> forall l c, repr data c -> RI (p l c) (q l (pst_of B c)).
Proof.
  split; intros H l c Hc; specialize (H l c Hc).
  - destruct (p l c) as [a l' c'|l'|e l'|f l'|x l' c'].
    + destruct H as [-> Hc']. constructor. exact Hc'.
    + rewrite H. constructor.
    + rewrite H. constructor.
    + destruct H as [f' ->]. constructor.
    + destruct H as [-> Hc']. constructor. exact Hc'.
  - destruct H; eauto.
Qed.

Lemma sim_peek : simP (a_peek m) peek.
Proof. intros c H. unfold peek, a_peek, of_q, m. rewrite tie_iter_peek by exact H. split; [reflexivity|exact H]. Qed.
Lemma sim_next_opt : simP (a_next_opt m) next_opt.
Proof.
  intros c H. pose proof (tie_iter_next B data c H) as T. destruct (next_opt c); try contradiction.
  destruct T as [T1 T2]. unfold a_next_opt, of_q, m. rewrite T1. split; [reflexivity|exact T2].
Qed.
Lemma sim_advance n : simP (a_advance m n) (advance n).
Proof.
  intros c H. pose proof (tie_iter_advance B data n c H) as T. unfold a_advance, of_q, m.
  destruct (advance n c) as [[] c'| | |]; try contradiction.
  - destruct T as [-> T]. split; [reflexivity|exact T].
  - destruct T as [f0 ->]. exists f0. reflexivity.
Qed.
Lemma i_bump_advance s : i_bump m s = i_advance 1 m s.
Proof. unfold i_bump, qbind, qret. destruct (i_advance 1 m s); reflexivity. Qed.
Lemma sim_bump : simP (a_bump m) bump.
Proof. intros c H. unfold a_bump, of_q. rewrite i_bump_advance. exact (sim_advance 1 c H). Qed.
Lemma sim_pos : simP (a_pos m) pos.
Proof. intros c H. unfold pos, a_pos, of_q, m. rewrite tie_iter_pos. split; [reflexivity|exact H]. Qed.
Lemma sim_remaining : simP (a_remaining m) remaining.
Proof. intros c H. unfold remaining, a_remaining, of_q, m. rewrite tie_iter_len. split; [reflexivity|exact H]. Qed.
Lemma sim_addr : simP (a_addr m) addr.
Proof.
  intros c H. unfold addr, a_addr, of_q, m. rewrite tie_iter_as_ref by exact H.
  cbn [fst pm_base]. rewrite Nat.add_comm, Nat.add_sub. split; [reflexivity|exact H].
Qed.
Lemma sim_rest_bytes : simP (a_rest_bytes m) rest_bytes.
Proof.
  intros c H. unfold rest_bytes, a_rest_bytes, of_q, m. rewrite tie_iter_as_ref, read_rest, firstn_all by exact H.
  split; [reflexivity|exact H].
Qed.
Lemma sim_peek_ahead n : simP (a_peek_ahead m n) (peek_ahead n).
Proof.
  intros c H. pose proof (tie_iter_peek_ahead B data n c H) as T. unfold a_peek_ahead, of_q, m.
  destruct (peek_ahead n c); try contradiction.
  - destruct T as [-> ->]. split; [reflexivity|exact H].
  - destruct T as [f0 ->]. exists f0. reflexivity.
Qed.
Lemma sim_slice : simP (a_slice m) slice.
Proof.
  intros c H. pose proof (tie_iter_slice B data c H) as T. unfold a_slice, of_q, m.
  destruct (slice c); try contradiction.
  destruct T as (pl & -> & <- & T). split; [reflexivity|exact T].
Qed.
Lemma sim_slice_skip k : simP (a_slice_skip m k) (slice_skip k).
Proof.
  intros c H. pose proof (tie_iter_slice_skip B data k c H) as T. unfold a_slice_skip, of_q, m.
  destruct (slice_skip k c); try contradiction.
  - destruct T as (pl & -> & <- & T). split; [reflexivity|exact T].
  - destruct T as [f0 ->]. exists f0. reflexivity.
Qed.
Lemma sim_peek_n n : simP (a_peek_n m n) (peek_n n).
Proof.
  intros c H. destruct (tie_iter_peek_n B data n c H) as (o & T1 & T2). unfold peek_n, a_peek_n, of_q, m.
  rewrite T1, T2. split; [reflexivity|exact H].
Qed.
Lemma sim_load_block K : simP (a_load_block m K) (load_block K).
Proof.
  intros c H. pose proof (tie_iter_load_block B data K c H) as T. unfold load_block, a_load_block, of_q, m.
  destruct (take K (rest c)) as [bs|].
  - destruct T as (pl & -> & <-). split; [reflexivity|exact H].
  - destruct T as [f0 ->]. exists f0. reflexivity.
Qed.

Lemma sim_bind A C (q : QP A) (p : P A) (qk : A -> QP C) (k : A -> P C) :
  simP q p -> (forall a, simP (qk a) (k a)) -> simP (qp_bind q qk) (bind p k).
Proof.
  intros H1 H2. rewrite simP_iff in H1. apply simP_iff. intros c Hc. unfold bind, qp_bind.
  destruct (H1 c Hc) as [a c' Hc'| | |]; try constructor.
  exact (proj1 (simP_iff _ _ _) (H2 a) c' Hc').
Qed.

Lemma simI_bind L R Bk A C (q : QI L R Bk A) (p : I L R Bk A) (qk : A -> QI L R Bk C) (k : A -> I L R Bk C) :
  simI q p -> (forall a, simI (qk a) (k a)) -> simI (qi_bind q qk) (ibind p k).
Proof.
  intros H1 H2. rewrite simI_iff in H1. apply simI_iff. intros l c Hc. unfold ibind, qi_bind.
  destruct (H1 l c Hc) as [a l' c' Hc'| | | |]; try (constructor; assumption).
  exact (proj1 (simI_iff _ _ _ _ _ _) (H2 a) l' c' Hc').
Qed.

Lemma simI_lift L R Bk A (q : QP A) (p : P A) : simP q p -> simI (L:=L) (R:=R) (Bk:=Bk) (qi_lift q) (ilift p).
Proof.
  intros H. rewrite simP_iff in H. apply simI_iff. intros l c Hc. unfold ilift, qi_lift.
  destruct (H c Hc); constructor; assumption.
Qed.

Lemma simI_loop L R Bk (q : QI L R Bk unit) (p : I L R Bk unit) lbl :
  simI q p -> forall f, simI (qi_loop f lbl q) (iloop f lbl p).
Proof.
  intros H f. rewrite simI_iff in H. apply simI_iff. induction f as [|f IH]; intros l c Hc; cbn [iloop qi_loop].
  - constructor.
  - destruct (H l c Hc) as [a l' c' Hc'| | | |x l' c' Hc']; try constructor.
    + exact (IH l' c' Hc').
    + destruct x as [k v|k|r]; try destruct (Nat.eqb k lbl); try (constructor; exact Hc').
      exact (IH l' c' Hc').
Qed.

Lemma simI_fun L R Bk (q : QI L R Bk R) (p : I L R Bk R) : simI q p -> simI (qi_fun q) (ifun p).
Proof.
  intros H. rewrite simI_iff in H. apply simI_iff. intros l c Hc. unfold ifun, qi_fun.
  destruct (H l c Hc) as [| | | |[] ]; constructor; assumption.
Qed.

Lemma sim_run L R Bk (q : QI L R Bk R) (p : I L R Bk R) l0 : simI q p -> simP (qi_run q l0) (irun p l0).
Proof.
  intros H. apply simI_fun in H. rewrite simI_iff in H. apply simP_iff. intros c Hc. unfold irun, qi_run.
  destruct (H l0 c Hc); constructor; assumption.
Qed.

Lemma simI_sub L R Bk L2 R2 B2 (q : QI L2 R2 B2 R2) (p : I L2 R2 B2 R2) (init : L -> L2) (fin : L2 -> L -> L) :
  simI q p -> simI (L:=L) (R:=R) (Bk:=Bk) (qi_sub q init fin) (isub p init fin).
Proof.
  intros H. apply simI_fun in H. rewrite simI_iff in H. apply simI_iff. intros l c Hc. unfold isub, qi_sub.
  destruct (H (init l) c Hc); constructor; assumption.
Qed.

Lemma simI_sub_catch L R Bk L2 R2 B2 (q : QI L2 R2 B2 R2) (p : I L2 R2 B2 R2) (init : L -> L2) (fin : L2 -> L -> L) :
  simI q p -> simI (L:=L) (R:=R) (Bk:=Bk) (qi_sub_catch q init fin) (isub_catch p init fin).
Proof.
  intros H. apply simI_fun in H. rewrite simI_iff in H. apply simI_iff. intros l c Hc. unfold isub_catch, qi_sub_catch.
  destruct (H (init l) c Hc); constructor; assumption.
Qed.

(* the operations that leave the position where it is: a value and new locals computed from the locals,
   an exception, a fault *)
Lemma simI_pure L R Bk A (a : L -> A) (g : L -> L) :
  simI (R:=R) (Bk:=Bk) (fun l s => QIDone (a l) (g l) s) (fun l c => IDone (a l) (g l) c).
Proof. intros l c Hc. split; [reflexivity|exact Hc]. Qed.
Lemma simI_throw L R Bk A (x : ctl R Bk) : simI (L:=L) (A:=A) (qi_throw x) (ithrow x).
Proof. intros l c Hc. split; [reflexivity|exact Hc]. Qed.
Lemma simI_fault L R Bk A (f f' : fault) : simI (L:=L) (R:=R) (Bk:=Bk) (A:=A) (qi_fault f') (ifault f).
Proof. intros l c Hc. exists f'. reflexivity. Qed.

Scheme bP_mut := Induction for bP Sort Prop
  with bI_mut := Induction for bI Sort Prop.
Combined Scheme b_mutind from bP_mut, bI_mut.

Theorem lift_sound :
  (forall A p (d : bP A p), simP (cP d) p) /\
  (forall L R Bk A p (d : bI L R Bk A p), simI (cI d) p).
Proof.
  apply b_mutind; intros; cbn [cP cI].
  - (* ret *) intros c Hc. split; [reflexivity|exact Hc].
  - apply sim_bind; assumption.
  - (* part *) intros c Hc. reflexivity.
  - (* fail *) intros c Hc. reflexivity.
  - (* fault_ *) intros c Hc. exists f. reflexivity.
  - apply sim_peek.
  - apply sim_next_opt.
  - apply sim_advance.
  - apply sim_bump.
  - apply sim_pos.
  - apply sim_addr.
  - apply sim_remaining.
  - apply sim_peek_ahead.
  - apply sim_slice.
  - apply sim_slice_skip.
  - apply sim_peek_n.
  - apply sim_rest_bytes.
  - apply sim_load_block.
  - apply sim_run. assumption.
  - (* ext: the tree carries the proof *) assumption.
  - (* eq *) intros c Hc. rewrite <- e. apply H. exact Hc.
  - (* iret *) exact (simI_pure _ _ _ _ (fun _ => a) (fun l => l)).
  - apply simI_bind; assumption.
  - apply simI_lift. assumption.
  - (* iget *) exact (simI_pure _ _ _ _ (fun l => l) (fun l => l)).
  - (* iset *) exact (simI_pure _ _ _ _ (fun _ => tt) f).
  - (* ipart *) intros l c Hc. reflexivity.
  - (* ifail *) intros l c Hc. reflexivity.
  - apply simI_fault.
  - apply simI_throw.
  - (* iguard *) destruct b.
    + exact (simI_pure _ _ _ _ (fun _ => tt) (fun l => l)).
    + apply simI_fault.
  - (* iguard_idx *) destruct b.
    + exact (simI_pure _ _ _ _ (fun _ => tt) (fun l => l)).
    + apply simI_fault.
  - (* ireturn *) destruct r as [a| |e]; cbn [ireturn].
    + apply simI_throw.
    + intros l c Hc. reflexivity.
    + intros l c Hc. reflexivity.
  - apply simI_loop. assumption.
  - apply simI_fun. assumption.
  - apply simI_sub. assumption.
  - apply simI_sub_catch. assumption.
Qed.

End Lift.
