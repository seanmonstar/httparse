(* Proofs/Conservative.v -- C15: every leniency option is a conservative extension: a buffer
   the default configuration parses to Complete is parsed to the same result under any
   option set; and each kind of message only reads its own options. *)
From Coq Require Import List NArith Lia Bool.
From HV Require Import Cursor Model Api Spec.
From HV.Proofs Require Import RefInd.
Import ListNotations.

Definition starts_nonws (r : list N) : Prop := exists b r', r = b :: r' /\ ws b = false.

Section Cons.
Variable hc : hcfg.

(* The default options neither fold nor drop, so of the cases of a value stage the fold is vacuous
   and an invalid byte is an error; where the value stops, `starts_nonws` says it stops under
   folding too. *)
Lemma ref_value_lines_cons voff racc off l s o r :
  ref_value_lines hcfg_default voff racc off l = ROk s o r -> starts_nonws r ->
  ref_value_lines hc voff racc off l = ROk s o r.
Proof.
  revert s o r.
  apply (ref_value_lines_ind hcfg_default voff (fun racc off l x => forall s o r,
           x = ROk s o r -> starts_nonws r -> ref_value_lines hc voff racc off l = ROk s o r));
    try (intros; discriminate).
  - intros ? ? ? ? ? Hv IH ? ? ? Hx Hr. rewrite rvl_char by exact Hv. exact (IH _ _ _ Hx Hr).
  - intros ? ? ? ? He _ ? ? ? [= <- <- <-] Hr. apply rvl_stop; [exact He|right; exact Hr].
Qed.

Lemma ref_value_start_cons off l s o r :
  ref_value_start hcfg_default off l = ROk s o r -> starts_nonws r ->
  ref_value_start hc off l = ROk s o r.
Proof.
  revert s o r.
  apply (ref_value_start_ind hcfg_default (fun off l x => forall s o r,
           x = ROk s o r -> starts_nonws r -> ref_value_start hc off l = ROk s o r));
    try (intros; discriminate).
  - intros ? ? ? ? Hw IH ? ? ? Hx Hr. rewrite rvs_ws by exact Hw. exact (IH _ _ _ Hx Hr).
  - intros ? ? ? Hv Hw ? ? ? Hx Hr. rewrite rvs_value by assumption. apply ref_value_lines_cons; assumption.
  - intros ? ? ? He _ ? ? ? [= <- <- <-] Hr. apply rvs_stop; [exact He|right; exact Hr].
Qed.

Lemma ref_value_lines_default_sub : forall n l voff racc off s o r, length l <= n ->
  ref_value_lines hcfg_default voff racc off l = ROk s o r -> dropped s = false.
Proof.
  intros n l voff racc off s o r _. revert s o r.
  apply (ref_value_lines_ind hcfg_default voff (fun _ _ _ x => forall s o r, x = ROk s o r -> dropped s = false));
    try (intros; discriminate).
  - intros ? ? ? ? ? _ IH. exact IH.
  - intros ? ? ? ? _ _ ? ? ? [= <- _ _]. reflexivity.
Qed.

Lemma ref_value_cons name off l x o r :
  ref_value hcfg_default name off l = ROk x o r -> (x <> LEnd -> starts_nonws r) ->
  ref_value hc name off l = ROk x o r.
Proof.
  unfold ref_value. destruct (ref_value_start hcfg_default off l) as [v o' r'| |] eqn:Ev; try discriminate.
  cbn [rbind]. intros [= <- <- <-] Hr. rewrite (ref_value_start_cons _ _ _ _ _ Ev); [reflexivity|].
  apply Hr. destruct (dropped v); discriminate.
Qed.

Lemma ref_header_line_cons first off l x o r :
  ref_header_line hcfg_default first off l = ROk x o r ->
  (x <> LEnd -> starts_nonws r) ->
  ref_header_line hc first off l = ROk x o r.
Proof.
  unfold ref_header_line.
  cbn [allow_space_before_first_header_name allow_spaces_after_header_name ignore_invalid_headers hcfg_default andb].
  destruct l as [|b l']; [discriminate|].
  destruct (is 13 b); [auto|]. destruct (is 10 b); [auto|].
  destruct (negb (tchar b)); [discriminate|].
  destruct (span tchar (b :: l')) as [name [|c r2]]; [discriminate|].
  destruct (is 58 c); [apply ref_value_cons|discriminate].
Qed.

Lemma default_line_rest first off l x o r :
  ref_header_line hcfg_default first off l = ROk x o r -> starts_nonws l.
Proof.
  destruct l as [|b l']; [discriminate|]. intros H. exists b, l'. split; [reflexivity|].
  destruct (ws b) eqn:Ew; [|reflexivity].
  (* SP and HTAB are neither a line end nor a name byte, and the default options neither skip a
     leading blank nor drop the line: H computes to `RErr HeaderName = ROk ..` *)
  destruct (ws_inv b Ew) as [->| ->]; discriminate H.
Qed.

(* `starts_nonws l` is carried along so that the line before knows what follows it *)
Theorem ref_header_block_cons cap : forall f hs off l n hs',
  ref_header_block hcfg_default f cap hs off l = (Complete n, hs') ->
  starts_nonws l /\ ref_header_block hc f cap hs off l = (Complete n, hs').
Proof.
  induction f as [|f IH]; intros hs off l n hs' H; [discriminate|]. rewrite ref_header_block_S in H |- *.
  destruct (ref_header_line hcfg_default (null hs) off l) as [x o r| |e] eqn:El; try discriminate.
  split; [exact (default_line_rest _ _ _ _ _ _ El)|]. rewrite (ref_header_line_cons _ _ _ _ _ _ El).
  - destruct x as [| |nm v]; cbn [block_step] in H |- *; [exact H|apply IH, H|].
    destruct (Nat.ltb (length hs) cap); [apply IH, H|discriminate].
  - intros Hx. destruct x as [| |nm v]; cbn [block_step] in H; [contradiction|apply IH in H; apply H|].
    destruct (Nat.ltb (length hs) cap); [apply IH in H; apply H|discriminate].
Qed.

Theorem ref_headers_cons : forall cap off l n hs,
  ref_headers hcfg_default cap off l = (Complete n, hs) -> ref_headers hc cap off l = (Complete n, hs).
Proof. intros cap off l n hs H. apply ref_header_block_cons, H. Qed.

End Cons.

(* a stage that refuses a leading SP is not affected by the multi-space option in front of it *)
Lemma spaces_skip {A} (f : nat -> list N -> rres A) e ms off l a o r :
  f off [] = RPart -> (forall l', f off (32%N :: l') = RErr e) ->
  f off l = ROk a o r -> rbind (ref_spaces ms off l) (fun _ o l => f o l) = ROk a o r.
Proof.
  intros Hnil Hsp H. unfold ref_spaces. destruct ms; [|exact H].
  destruct l as [|b l']; [congruence|]. cbn [span]. destruct (is 32 b) eqn:E; [|exact H].
  apply is_eq in E. subst b. congruence.
Qed.

Lemma ref_version_sp off l' : ref_version off (32%N :: l') = RErr Version.
Proof.
  unfold ref_version.
  change (take 8 (32%N :: l')) with (match take 7 l' with Some t => Some (32%N :: t) | None => None end).
  destruct (take 7 l'); reflexivity.
Qed.

Lemma ref_tail_cons hc cap x n :
  fst (ref_tail x hcfg_default cap) = Complete n -> ref_tail x hc cap = ref_tail x hcfg_default cap.
Proof.
  destruct x as [u o r| |e]; cbn [ref_tail fst]; [|discriminate..].
  destruct (ref_headers hcfg_default cap o r) as [s hs] eqn:Eh. cbn [fst]. intros ->.
  exact (ref_headers_cons hc _ _ _ _ _ Eh).
Qed.

Lemma ref_request_line_cons ms buf u o r :
  snd (ref_request_line false buf) = ROk u o r -> ref_request_line ms buf = ref_request_line false buf.
Proof.
  unfold ref_request_line.
  destruct (ref_empty_lines 0 buf) as [u1 o1 l1| |e1]; try discriminate.
  destruct (ref_method o1 l1) as [m o2 l2| |e2]; try discriminate.
  cbn [ref_spaces rbind].
  destruct (ref_target o2 l2) as [p o3 l3| |e3] eqn:Et; try discriminate.
  rewrite (spaces_skip ref_target Token _ _ _ _ _ _ eq_refl (fun _ => eq_refl) Et).
  destruct (ref_version o3 l3) as [v o4 l4| |e4] eqn:Ev; try discriminate.
  rewrite (spaces_skip ref_version Version _ _ _ _ _ _ eq_refl (ref_version_sp _) Ev). reflexivity.
Qed.

Theorem ref_request_cons cf cap buf n :
  rq_status (ref_request config_default cap buf) = Complete n ->
  ref_request cf cap buf = ref_request config_default cap buf.
Proof.
  rewrite !ref_request_tail. cbn [rq_status allow_multiple_spaces_in_request_line_delimiters config_default].
  change (request_hcfg config_default) with hcfg_default. intros Hc.
  destruct (snd (ref_request_line false buf)) as [u o r| |e] eqn:El; [|discriminate Hc..].
  rewrite (ref_request_line_cons _ _ _ _ _ El), El, (ref_tail_cons (request_hcfg cf) _ _ _ Hc). reflexivity.
Qed.

(* responses: identical when the response multi-space option is off; with it, everything but
   the reason is identical (the reason loses its leading spaces -- the stated exception) *)
Theorem ref_response_cons cf cap buf n :
  allow_multiple_spaces_in_response_status_delimiters cf = false ->
  rp_status (ref_response config_default cap buf) = Complete n ->
  ref_response cf cap buf = ref_response config_default cap buf.
Proof.
  intros Hms. rewrite !ref_response_tail, Hms.
  cbn [rp_status allow_multiple_spaces_in_response_status_delimiters config_default]. intros Hc.
  rewrite (ref_tail_cons (response_hcfg cf) _ _ _ Hc). reflexivity.
Qed.

Definition reason_stripped (d a : option sl) : Prop :=
  match d, a with
  | Some (Sub o0 bs), Some s' =>
      exists sp t, (forall x, In x sp -> x = 32%N) /\ bs = sp ++ t /\ s' = Sub (length sp + o0) t
  | Some (Ext e), Some s' => s' = Ext e
  | None, None => True
  | _, _ => False
  end.

Lemma ref_reason_strip sp off l s o r :
  (forall x, In x sp -> x = 32%N) ->
  ref_reason off (sp ++ l) = ROk s o r ->
  exists s', ref_reason (length sp + off) l = ROk s' o r /\ reason_stripped (Some s) (Some s').
Proof.
  intros Hsp H. unfold ref_reason in *.
  assert (Hspan : span reason_char (sp ++ l) = (sp ++ fst (span reason_char l), snd (span reason_char l))).
  { clear H. induction sp as [|x sp IH]; [cbn [app]; destruct (span reason_char l); reflexivity|].
    cbn [app span]. rewrite (Hsp x (or_introl eq_refl)). change (reason_char 32) with true.
    rewrite IH by (intros y Hy; apply Hsp; right; exact Hy). reflexivity. }
  rewrite Hspan in H. destruct (span reason_char l) as [t rr]. cbn [fst snd] in H.
  rewrite app_length in H. replace (length sp + length t + off) with (length t + (length sp + off)) in H by lia.
  destruct (ref_eol Status (length t + (length sp + off)) rr) as [u o' r'| |e]; try discriminate.
  injection H as <- <- <-. eexists. split; [reflexivity|].
  rewrite forallb_app.
  assert (Hall : forallb (fun b => N.ltb b 128) sp = true).
  { apply forallb_forall. intros x Hx. rewrite (Hsp x Hx). reflexivity. }
  rewrite Hall. cbn [andb]. destruct (forallb _ t); [|reflexivity].
  exists sp, t. split; [exact Hsp|split; reflexivity].
Qed.

Lemma ref_after_code_cons ms off l s o r :
  ref_after_code false off l = ROk s o r ->
  exists s', ref_after_code ms off l = ROk s' o r /\ reason_stripped (Some s) (Some s').
Proof.
  assert (Hsame : reason_stripped (Some s) (Some s)).
  { destruct s as [o0 bs|e]; [|reflexivity]. exists [], bs. split; [intros x []|split; reflexivity]. }
  destruct ms; [|intros H; exists s; split; [exact H|exact Hsame]].
  unfold ref_after_code. destruct l as [|b l']; [discriminate|].
  destruct (is 32 b); [|intros H; exists s; split; [exact H|exact Hsame]].
  cbn [ref_spaces rbind]. unfold ref_spaces. intros H.
  destruct (span (is 32) l') as [sp r2] eqn:Es. apply span_eq in Es as [-> Hf].
  assert (Hsp : forall x, In x sp -> x = 32%N).
  { intros x Hx. apply is_eq. exact (proj1 (forallb_forall _ _) Hf x Hx). }
  destruct (ref_reason_strip sp (S off) r2 s o r Hsp H) as [s' [Hs' Hrel]].
  (* were the reason all spaces up to the end of the buffer, it would not be complete *)
  destruct r2 as [|b2 r2']; [discriminate Hs'|].
  exists s'. split; [exact Hs'|exact Hrel].
Qed.

Lemma ref_status_line_cons ms buf u o r :
  let d := ref_status_line false buf in let a := ref_status_line ms buf in
  snd d = ROk u o r ->
  snd a = snd d /\ rs_pversion (fst a) = rs_pversion (fst d) /\ rs_code (fst a) = rs_code (fst d) /\
  reason_stripped (rs_reason (fst d)) (rs_reason (fst a)).
Proof.
  cbn zeta. unfold ref_status_line.
  destruct (rbind (ref_empty_lines 0 buf) _) as [v o1 l1| |e1]; try discriminate.
  (* SP, then the code: with the option the SP may be a run, which a default-accepted buffer does not have *)
  destruct (ref_sp Version o1 l1) as [u' o1' l1'| |e] eqn:Esp; cbn [rbind ref_spaces]; try discriminate.
  destruct (ref_code o1' l1') as [c o2 l2| |e2] eqn:Ec; try discriminate.
  rewrite (spaces_skip ref_code Status ms _ _ _ _ _ eq_refl (fun _ => eq_refl) Ec).
  destruct (ref_after_code false o2 l2) as [s o3 l3| |e3] eqn:Ea; try discriminate.
  destruct (ref_after_code_cons ms _ _ _ _ _ Ea) as [s' [-> Hrel]]. intros _.
  split; [reflexivity|]. split; [reflexivity|]. split; [reflexivity|exact Hrel].
Qed.

Theorem ref_response_cons_ms cf cap buf n :
  rp_status (ref_response config_default cap buf) = Complete n ->
  let a := ref_response cf cap buf in let d := ref_response config_default cap buf in
  rp_status a = rp_status d /\ rp_headers a = rp_headers d /\
  rs_pversion (rp_start a) = rs_pversion (rp_start d) /\ rs_code (rp_start a) = rs_code (rp_start d) /\
  reason_stripped (rs_reason (rp_start d)) (rs_reason (rp_start a)).
Proof.
  cbn zeta. rewrite !ref_response_tail.
  cbn [rp_status rp_headers rp_start allow_multiple_spaces_in_response_status_delimiters config_default].
  change (response_hcfg config_default) with hcfg_default. intros Hc.
  destruct (snd (ref_status_line false buf)) as [u o r| |e] eqn:El; [|discriminate Hc..].
  destruct (ref_status_line_cons (allow_multiple_spaces_in_response_status_delimiters cf) _ _ _ _ El)
    as (Hs & Hv & Hcd & Hr).
  rewrite Hs, El, (ref_tail_cons (response_hcfg cf) _ _ _ Hc).
  split; [reflexivity|]. split; [reflexivity|]. split; [exact Hv|]. split; [exact Hcd|exact Hr].
Qed.

Definition same_request_bits (a b : config) : Prop :=
  allow_multiple_spaces_in_request_line_delimiters a = allow_multiple_spaces_in_request_line_delimiters b /\
  allow_space_before_first_header_name_cfg a = allow_space_before_first_header_name_cfg b /\
  ignore_invalid_headers_in_requests a = ignore_invalid_headers_in_requests b.
Definition same_response_bits (a b : config) : Prop :=
  allow_multiple_spaces_in_response_status_delimiters a = allow_multiple_spaces_in_response_status_delimiters b /\
  allow_space_before_first_header_name_cfg a = allow_space_before_first_header_name_cfg b /\
  ignore_invalid_headers_in_responses a = ignore_invalid_headers_in_responses b /\
  allow_spaces_after_header_name_in_responses a = allow_spaces_after_header_name_in_responses b /\
  allow_obsolete_multiline_headers_in_responses a = allow_obsolete_multiline_headers_in_responses b.

Theorem request_ignores_response_options a b cap buf :
  same_request_bits a b -> ref_request a cap buf = ref_request b cap buf.
Proof. intros (H1 & H2 & H3). unfold ref_request, request_hcfg. rewrite H1, H2, H3. reflexivity. Qed.
Theorem response_ignores_request_options a b cap buf :
  same_response_bits a b -> ref_response a cap buf = ref_response b cap buf.
Proof. intros (H1 & H2 & H3 & H4 & H5). unfold ref_response, response_hcfg. rewrite H1, H2, H3, H4, H5. reflexivity. Qed.
