(* Src.v -- the public entry points built on the functions TRANSLATED from /repo/src/lib.rs on this run
   (Generated/Lib.v, Generated/LibApi.v), and the master tie: they are equal to the hand-written model
   (Model.v, Api.v) every theorem of Thm/*.v is stated about.  Rewriting with `src_tie` turns each of
   those theorems into a theorem about what the source says.

   What is translated: skip_empty_lines, skip_spaces, parse_version, parse_token, parse_method, parse_uri,
   parse_code, parse_reason, parse_headers_iter_uninit, both parse_with_config_and_uninit_headers bodies,
   both parse_with_config bodies, the one-expression delegations parse / parse_with_uninit_headers /
   ParserConfig::parse_*, parse_headers, parse_chunk_size, and the macros next! expect! complete! space!
   newline! (expanded from macros.rs).  What is only compared with its expected token text (the translator
   fails if it changes): the constructors `new`, the drop guard ShrinkOnDrop, assume_init_slice /
   deinit_slice_mut / parse_headers_iter, struct ParserConfig.  What stays hand-written: Cursor.v (tied to
   the translation of iter.rs in TieIter.v), the loop shells of Scan.v (equal to their translations,
   TieLoops.v), ImpLib.v / ImpGlue.v. *)
From HV Require Import Cursor Scan Model Api.
From HV.Proofs Require Export Mono SrcReq SrcResp SrcPH SrcChunk.

Definition source_is_model (E : env) : Prop :=
  request_source_is_model E /\ response_source_is_model E /\ headers_source_is_model E /\ chunk_source_is_model.
Theorem src_tie : forall E, env_fwd E -> source_is_model E.
Proof.
  intros E HE.
  exact (conj (src_tie_request E HE) (conj (src_tie_response E HE) (conj (src_tie_headers E HE) src_tie_chunk))).
Qed.
