(* Proofs/Storage.v -- header storage (C17), read off the reference parsers: a run with a smaller
   array is the run with a larger one cut down, and the shape of the caller's array after a call. *)
From Coq Require Import List NArith ZArith Lia ZifyBool ZifyN ZifyNat.
From HV Require Import Cursor Model Spec.
From HV.Proofs Require Import RefInd RefFacts Refine.
Import ListNotations.

Lemma fits_kept cap (r : status * list (sl * sl)) : length (snd r) <= cap ->
  r = if Nat.leb (length (snd r)) cap then r else (Error TooManyHeaders, firstn cap (snd r)).
Proof. intros H. apply Nat.leb_le in H. rewrite H. reflexivity. Qed.

Lemma capacity_law_block : forall hc f cap cap' hs off l,
  cap <= cap' -> length hs <= cap ->
  let r' := ref_header_block hc f cap' hs off l in
  ref_header_block hc f cap hs off l =
  if Nat.leb (length (snd r')) cap then r' else (Error TooManyHeaders, firstn cap (snd r')).
Proof.
  (* the two runs go in step until the smaller array is full and a further header comes *)
  induction f as [|f IH]; intros cap cap' hs off l Hc Hh; cbn zeta.
  { apply (fits_kept cap (_, hs)), Hh. }
  rewrite !ref_header_block_S.
  destruct (ref_header_line hc (null hs) off l) as [[| |n v] o r| |e]; cbn [block_step]; try (apply (fits_kept cap (_, hs)), Hh).
  { apply IH; assumption. }
  destruct (Nat.ltb_spec (length hs) cap) as [Hlt|Hge].
  - destruct (Nat.ltb_spec (length hs) cap'); [|lia].
    apply IH; [assumption|]. rewrite app_length. cbn [length]. lia.
  - destruct (Nat.ltb_spec (length hs) cap') as [Hlt'|Hge']; [|apply (fits_kept cap (_, hs)), Hh].
    (* the larger run keeps hs, the header and maybe more: too many, and the first cap of them are hs *)
    destruct (ref_header_block_inv hc cap' f (hs ++ [(n, v)]) o r) as ([more ->] & _).
    assert (Heq : cap = length hs) by lia.
    rewrite <- app_assoc, app_length. cbn [app length].
    destruct (Nat.leb_spec (length hs + S (length more)) cap); [lia|].
    rewrite Heq, firstn_app, Nat.sub_diag, firstn_all, app_nil_r. reflexivity.
Qed.

Theorem capacity_law_headers : forall hc cap cap' off l, cap <= cap' ->
  let r' := ref_headers hc cap' off l in
  ref_headers hc cap off l =
  if Nat.leb (length (snd r')) cap then r' else (Error TooManyHeaders, firstn cap (snd r')).
Proof. intros hc cap cap' off l Hc. apply capacity_law_block; [exact Hc|apply Nat.le_0_l]. Qed.

Lemma tail_capacity_law x hc cap cap' : cap <= cap' ->
  let r' := ref_tail x hc cap' in
  ref_tail x hc cap =
  if Nat.leb (length (snd r')) cap then r' else (Error TooManyHeaders, firstn cap (snd r')).
Proof. intros Hc. destruct x as [u o l| |e]; [apply capacity_law_headers, Hc|reflexivity..]. Qed.

Theorem capacity_law_request : forall cf cap cap' buf, cap <= cap' ->
  let r' := ref_request cf cap' buf in
  ref_request cf cap buf =
  if Nat.leb (length (rq_headers r')) cap then r'
  else Build_ref_req (Error TooManyHeaders) (rq_start r') (firstn cap (rq_headers r')).
Proof.
  intros cf cap cap' buf Hc. cbn zeta. rewrite !ref_request_tail. cbn [rq_start rq_headers].
  rewrite (tail_capacity_law _ _ cap cap' Hc). destruct (Nat.leb _ cap); reflexivity.
Qed.

Theorem capacity_law_response : forall cf cap cap' buf, cap <= cap' ->
  let r' := ref_response cf cap' buf in
  ref_response cf cap buf =
  if Nat.leb (length (rp_headers r')) cap then r'
  else Build_ref_resp (Error TooManyHeaders) (rp_start r') (firstn cap (rp_headers r')).
Proof.
  intros cf cap cap' buf Hc. cbn zeta. rewrite !ref_response_tail. cbn [rp_start rp_headers].
  rewrite (tail_capacity_law _ _ cap cap' Hc). destruct (Nat.leb _ cap); reflexivity.
Qed.

Definition is_written (s : slot) : Prop := match s with SWritten _ _ => True | SOld _ => False end.

Lemma written_of_all hs : Forall is_written (written_of hs).
Proof. unfold written_of. apply Forall_forall. intros s Hs. apply in_map_iff in Hs as [h [<- _]]. exact I. Qed.

Lemma slots_of_split hs arr :
  firstn (length hs) (slots_of hs arr) = written_of hs /\
  skipn (length hs) (slots_of hs arr) = skipn (length hs) arr.
Proof.
  split; [apply firstn_slots_of|]. unfold slots_of.
  rewrite skipn_app, map_length, Nat.sub_diag. cbn [skipn].
  rewrite skipn_all2 by (rewrite map_length; lia). reflexivity.
Qed.

(* the caller's array after a Complete call that found hs: length hs written slots, then what was there *)
Lemma slots_of_shape hs base : length hs <= length base ->
  Forall is_written (written_of hs) /\
  length hs <= length base /\
  firstn (length hs) (slots_of hs base) = written_of hs /\
  skipn (length hs) (slots_of hs base) = skipn (length hs) base.
Proof. intros H. split; [apply written_of_all|]. split; [exact H|]. apply slots_of_split. Qed.
