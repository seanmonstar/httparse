(* TieApiBase.v -- what the ties of the two `parse_with_config_and_uninit_headers` bodies (TieReq, TieResp) and of
   `parse_headers` (TiePH) share.  A core is a chain of stages (Model.stage): a call of a start-line function or a
   macro, then a store into `self`.  `stage_rule` takes one stage off the translated body and off the model
   at once; `core_tail` is the common end of both cores (remaining, the header machine, the length).  The usize
   guard `orig_len - bytes.len()` is discharged by conservation (Mono.step); the header machine is
   TieHeaders.tie_headers. *)
From Coq Require Import List NArith Bool Lia Arith.
From HV Require Import Cursor Scan Model Api Imp ImpLib ImpGlue.
From HV.Generated Require Import Lib.
From HV.Proofs Require Import TieBase Mono TieHeaders.
Import ListNotations.
Local Open Scope N_scope.
Local Open Scope imp_scope.

Lemma stage_bind {A C S Rr} (p : P A) (q : A -> P C) c (s : S) (stop : status -> S -> Rr) K :
  stage (bind p q c) s stop K = stage (p c) s stop (fun a c' => stage (q a c') s stop K).
Proof. unfold bind, stage. destruct (p c); reflexivity. Qed.

Lemma stage_ret {A S Rr} (a : A) c (s : S) (stop : status -> S -> Rr) K : stage (ret a c) s stop K = K a c.
Proof. reflexivity. Qed.

(* `if ms { skip_spaces(bytes)?; }` is one call of this *)
Definition opt_call (b : bool) (p : P unit) : P unit := if b then p else ret tt.
Lemma opt_call_ext {b g p} : (forall c, g c = p c) -> forall c, opt_call b g c = opt_call b p c.
Proof. intros H c. destruct b; [apply H|reflexivity]. Qed.
Lemma mono_opt_call {b p} : mono p -> mono (opt_call b p).
Proof. destruct b; [trivial|intros; apply (mono_read (fun _ => tt))]. Qed.

Lemma tie_opt_skip_spaces {L R B} b fuel (l : L) c :
  ilift (R:=R) (B:=B) (opt_call b (g_skip_spaces fuel)) l c = ilift (opt_call b (skip_spaces fuel)) l c.
Proof. exact (ilift_ext (opt_call_ext (tie_skip_spaces fuel)) l c). Qed.
Lemma mono_opt_skip_spaces b fuel : mono (opt_call b (skip_spaces fuel)).
Proof. exact (mono_opt_call (mono_skip_spaces fuel)). Qed.

Lemma step_new buf c : step (cur_new buf) c -> (apos c + length (rest c) = length buf)%nat.
Proof. intros [_ H]. unfold total, cur_new, apos in *. cbn [pre tokrev rest length] in H. lia. Qed.

Section ApiTie.
Variable E : env.
Hypothesis Efwd : env_fwd E.

Lemma icall_headers_spec {L R B} fuel0 hc (get : L -> list slot) put putmem (l : L) c :
  exists c', icall_headers (R:=R) (B:=B) E (S fuel0) hc get put putmem l c =
    match parse_headers_iter_uninit E (S fuel0) hc (get l) c with
    | (st, nh, arr') =>
        let l' := putmem arr' (put (firstn nh arr') l) in
        match st with
        | Complete n => IDone n l' c' | Partial => IPart l' | Error e => IFail e l' | Faulted f => IFault f l'
        end
    end.
Proof.
  destruct Efwd as (_ & Hv & Hn).
  rewrite <- (tie_headers E fuel0 hc Hn Hv (get l) c). unfold icall_headers, isub.
  destruct (ifun _ _ _) as [n lh c'|lh|e lh|f lh|x lh c']; cbn [hdr_fin]; eauto.
Qed.

(* a core seen from outside: the status, what its locals say `self` holds (`view`), the caller's array (`mem`) *)
Section Core.
Context {L B V : Type} (view : L -> V) (mem : L -> list slot).
Notation I := (I L nat B).

Definition fin_gen (r : ires L nat B nat) : status * V * list slot :=
  match r with
  | IDone n l _ => (Complete n, view l, mem l)
  | IPart l => (Partial, view l, mem l)
  | IFail e l => (Error e, view l, mem l)
  | IFault f l => (Faulted f, view l, mem l)
  | IExc _ l _ => (Faulted Unreachable, view l, mem l)
  end.

Lemma ifun_iset f (k : I nat) l c : ifun (iset f ;;~ k) l c = ifun k (f l) c.
Proof. reflexivity. Qed.
Lemma ifun_ret {A} (a : A) (k : A -> I nat) l c : ifun (ibind (iret a) k) l c = ifun (k a) l c.
Proof. reflexivity. Qed.
Lemma ifun_assoc {A C} (m : I A) (k : A -> I C) (h : C -> I nat) l c :
  ifun (ibind (ibind m k) h) l c = ifun (ibind m (fun a => ibind (k a) h)) l c.
Proof. unfold ifun, ibind. destruct (m l c); reflexivity. Qed.
Lemma ifun_opt (b : bool) (g : P unit) (k : I nat) l c :
  ifun ((if b then ilift g ;;~ iret tt else iret tt) ;;~ k) l c = ifun (ilift (opt_call b g) ;;~ k) l c.
Proof. unfold ifun, ibind, ilift, iret, opt_call, ret. destruct b; [destruct (g c) as [[]?| | |]|]; reflexivity. Qed.

Lemma stage_rule {A} c0 (m : I A) (p : P A) (k : A -> I nat) l c K s arr :
  (forall l c, m l c = ilift p l c) -> mono p -> step c0 c -> view l = s -> mem l = arr ->
  (forall a c', step c0 c' -> fin_gen (ifun (k a) l c') = K a c') ->
  fin_gen (ifun (ibind m k) l c) = stage (p c) s (fun st s => (st, s, arr)) K.
Proof.
  intros Hm Hp Hc <- <- Hk. unfold ifun, ibind. rewrite Hm. unfold ilift, stage.
  destruct (p c) as [a c'| | |] eqn:Ep; try reflexivity.
  apply Hk. exact (step_trans _ _ _ Hc (Hp _ _ _ Ep)).
Qed.

Lemma core_tail hc (get : L -> list slot) put putmem (seth : list slot -> L -> L) buf l c :
  step (cur_new buf) c ->
  fin_gen (ifun (t <~ ilift remaining ;; iguard (Nat.leb t (length buf)) ;;~
                 n <~ icall_headers E (S (length buf)) hc get put putmem ;;
                 l' <~ iget ;; iset (seth (get l')) ;;~ iret (length buf - t + n)%nat) l c)
  = match parse_headers_iter_uninit E (S (length buf)) hc (get l) c with
    | (Complete n, nh, arr') =>
        let l1 := putmem arr' (put (firstn nh arr') l) in
        (Complete (apos c + n), view (seth (get l1) l1), mem (seth (get l1) l1))
    | (st, nh, arr') => (st, view (putmem arr' (put (firstn nh arr') l)), mem (putmem arr' (put (firstn nh arr') l)))
    end.
Proof.
  intros Hs. apply step_new in Hs.
  destruct (icall_headers_spec (R:=nat) (B:=B) (length buf) hc get put putmem l c) as (c' & Hc).
  unfold ifun, ibind at 1, ilift, remaining.
  replace (Nat.leb (length (rest c)) (length buf)) with true by (symmetry; apply Nat.leb_le; lia).
  replace (length buf - length (rest c))%nat with (apos c) by lia.
  unfold iguard, ibind, iret, iget, iset. rewrite Hc.
  destruct (parse_headers_iter_uninit E (S (length buf)) hc (get l) c) as [[[n| |e|f] nh] arr']; reflexivity.
Qed.
End Core.

End ApiTie.

(* one stage off both sides: `tie` relates the head statement to the model's function, `mon` is that function's
   monotonicity; the step hypothesis of the cursor is in the context, the one of the next cursor is introduced *)
Tactic Notation "stage_step" uconstr(tie) uconstr(mon) "as" simple_intropattern(a) :=
  eapply stage_rule; [refine tie | refine mon | eassumption | reflexivity | reflexivity | intros a ? ?].
Tactic Notation "stage_step" uconstr(tie) uconstr(mon) := stage_step tie mon as ?.
