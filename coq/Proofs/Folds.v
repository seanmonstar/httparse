(* Proofs/Folds.v -- C05, the folding clause: in a header value accepted under obsolete line folding, a LF
   occurs only immediately followed by SP / HTAB and a CR only immediately followed by LF (so "CRLF or LF,
   then SP or HTAB"); without folding no CR / LF occurs at all (Hygiene.value_shape already says so
   through the byte class). *)
From Coq Require Import List NArith Bool.
From HV Require Import Cursor Model Spec.
From HV.Proofs Require Import RefInd Hygiene.
Import ListNotations.

(* what may follow x: `nx` is the next byte, None = nothing yet (open end) *)
Definition chk (x : N) (nx : option N) : bool :=
  if is 10 x then match nx with Some y => ws y | None => true end
  else if is 13 x then match nx with Some y => is 10 y | None => true end
  else true.

(* on the accumulator (most recent byte first) *)
Fixpoint rfolds (nx : option N) (racc : list N) : bool :=
  match racc with
  | [] => true
  | x :: t => chk x nx && rfolds (Some x) t
  end.

(* on the value, front to back; `e` is what follows the last byte *)
Fixpoint ffolds (l : list N) (e : option N) : bool :=
  match l with
  | [] => true
  | x :: r => chk x (match r with y :: _ => Some y | [] => e end) && ffolds r e
  end.

Lemma ffolds_snoc : forall l x e, ffolds (l ++ [x]) e = ffolds l (Some x) && chk x e.
Proof.
  induction l as [|y l IH]; intros x e; cbn [app ffolds].
  - rewrite andb_true_r. reflexivity.
  - rewrite IH. destruct l as [|z l']; cbn [app]; rewrite andb_assoc; reflexivity.
Qed.

Lemma rfolds_ffolds : forall t nx, rfolds nx t = ffolds (rev t) nx.
Proof.
  induction t as [|x t IH]; intros nx; [reflexivity|]. cbn [rfolds rev]. rewrite ffolds_snoc, IH. apply andb_comm.
Qed.

Lemma rfolds_weaken : forall t nx, rfolds nx t = true -> rfolds None t = true.
Proof.
  intros [|x t] nx H; [reflexivity|]. cbn [rfolds] in *. apply andb_prop in H as [H1 H2]. rewrite H2, andb_true_r.
  unfold chk in *. destruct (is 10 x); [reflexivity|]. destruct (is 13 x); reflexivity.
Qed.

Lemma rfolds_drop_while : forall p t nx, rfolds nx t = true -> rfolds None (drop_while p t) = true.
Proof.
  intros p t. induction t as [|x t IH]; intros nx H; [reflexivity|]. cbn [drop_while].
  destruct (p x); [|eapply rfolds_weaken; exact H].
  cbn [rfolds] in H. apply andb_prop in H as [_ H2]. eapply IH. exact H2.
Qed.

Lemma chk_value_char b nx : value_char b = true -> chk b nx = true.
Proof.
  intros H. unfold chk. destruct (is 10 b) eqn:E10; [apply is_eq in E10; subst b; discriminate H|].
  destruct (is 13 b) eqn:E13; [apply is_eq in E13; subst b; discriminate H|]. reflexivity.
Qed.

Definition val_folds (v : sl) : Prop := match v with Sub _ bs => ffolds bs None = true | Ext _ => True end.

(* invariant of ref_value_lines: the accumulator is fold-clean given the byte that comes next, so a LF at
   its head waits for SP / HTAB and a CR at its head for LF *)
Lemma ref_value_lines_folds hc voff racc off l s o r :
  rfolds (hd_error l) racc = true -> ref_value_lines hc voff racc off l = ROk s o r -> val_folds s.
Proof.
  intros Hr H. revert s o r H Hr. revert racc off l.
  apply (ref_value_lines_ind hc voff (fun racc _ l x => forall s o r, x = ROk s o r ->
           rfolds (hd_error l) racc = true -> val_folds s)).
  - discriminate.
  - discriminate.
  - (* value byte *)
    intros racc off b r x Ev IH s o r' E Hr. apply (IH s o r' E). cbn [rfolds hd_error] in *.
    rewrite (chk_value_char b _ Ev), Hr. reflexivity.
  - (* value ends *)
    intros racc off e r _ _ s o r' [= <- _ _] Hr. unfold vtrim, val_folds.
    rewrite rev'_rev, <- rfolds_ffolds. exact (rfolds_drop_while is_trim racc _ Hr).
  - (* fold *)
    intros racc off e b r x He _ Hw IH s o r' E Hr. apply (IH s o r' E).
    destruct He as [->| ->]; cbn [app hd_error] in Hr; cbn [rev app rfolds hd_error];
      change (chk 10 (Some b)) with (ws b); rewrite Hw, Hr; reflexivity.
  - intros racc off b r _ _ _ s o r' E _. apply vinvalid_ok in E. subst s. exact I.
Qed.

Lemma ref_value_start_folds hc off l s o r : ref_value_start hc off l = ROk s o r -> val_folds s.
Proof.
  revert s o r. revert off l.
  apply (ref_value_start_ind hc (fun _ _ x => forall s o r, x = ROk s o r -> val_folds s)).
  - discriminate.
  - discriminate.
  - intros off b r x _ IH. exact IH.
  - intros off b r _ _ s o r' E. exact (ref_value_lines_folds hc off [] off (b :: r) s o r' eq_refl E).
  - intros off e r _ _ s o r' [= <- _ _]. reflexivity.
  - intros off e b r x _ _ _ IH. exact IH.
  - intros off b r _ _ _ s o r' E. apply vinvalid_ok in E. subst s. exact I.
Qed.

Lemma ref_headers_val_folds hc cap off l : Forall (fun h => val_folds (snd h)) (snd (ref_headers hc cap off l)).
Proof.
  apply Forall_impl with (P := stored val_folds); [intros h Hh; exact (proj2 Hh)|]. apply ref_headers_G.
  intros off' l' v o r E _. exact (ref_value_start_folds hc off' l' v o r E).
Qed.

Theorem ref_headers_folds hc cap off l st hs :
  ref_headers hc cap off l = (st, hs) -> Forall (fun h => val_folds (snd h)) hs.
Proof. intros H. pose proof (ref_headers_val_folds hc cap off l) as Hs. rewrite H in Hs. exact Hs. Qed.

Theorem ref_request_folds cf cap buf :
  Forall (fun h => val_folds (snd h)) (rq_headers (ref_request cf cap buf)).
Proof.
  rewrite ref_request_tail. apply tail_headers_Forall. intros off l.
  apply ref_headers_val_folds.
Qed.

Theorem ref_response_folds cf cap buf :
  Forall (fun h => val_folds (snd h)) (rp_headers (ref_response cf cap buf)).
Proof.
  rewrite ref_response_tail. apply tail_headers_Forall. intros off l.
  apply ref_headers_val_folds.
Qed.

Lemma ffolds_adjacent : forall l e a x y b, ffolds l e = true -> l = a ++ x :: y :: b ->
  (is 10 x = true -> ws y = true) /\ (is 13 x = true -> is 10 y = true).
Proof.
  induction l as [|z l IH]; intros e a x y b H E; [destruct a; discriminate|].
  cbn [ffolds] in H. apply andb_prop in H as [H1 H2].
  destruct a as [|z' a].
  - cbn [app] in E. injection E as -> ->. unfold chk in H1. split; intros Hx; rewrite Hx in H1.
    + exact H1.
    + destruct (is 10 x) eqn:E10; [|exact H1]. unfold is in *. apply N.eqb_eq in E10, Hx. congruence.
  - cbn [app] in E. injection E as -> ->. eapply IH; eauto.
Qed.
