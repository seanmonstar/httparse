(* TieHeaders.v -- parse_headers_iter_uninit as translated from /repo/src/lib.rs on this run
   (Generated/Lib.v: g_headers_body, eleven nested loops, the two local macros expanded, the
   slot iterator and the drop guard as templates compared with their token text) = Model.headers_loop.

   Each labelled loop of the generated body is simulated by the stage of the model it was
   modelled as (`sim`), stepping both sides by evaluation; the 'headers loop itself is an
   induction over a hypothesis about one turn, so that the position invariant is `Mono.step`. *)
From Coq Require Import List NArith Bool Lia ZifyBool ZifyN Arith.
From HV Require Import Cursor Scan Model Imp ImpLib.
From HV.Generated Require Import Lib.
From HV.Proofs Require Import TieBase Mono.
Import ListNotations.
Local Open Scope N_scope.

Lemma write_slot_some : forall (a : list slot) i s, (i < length a)%nat -> exists a', write_slot i s a = Some a'.
Proof.
  induction a as [|x a IH]; intros i s H; cbn [length] in H; [lia|].
  destruct i as [|i]; cbn [write_slot]; [eauto|].
  destruct (IH i s ltac:(lia)) as [a' Ha]. rewrite Ha. eauto.
Qed.
Lemma write_slot_none : forall (a : list slot) i s, (length a <= i)%nat -> write_slot i s a = None.
Proof.
  induction a as [|x a IH]; intros i s H; cbn [length] in H; [destruct i; reflexivity|].
  destruct i as [|i]; [lia|]. cbn [write_slot]. rewrite IH by lia. reflexivity.
Qed.

Lemma drop_while_app p (a b : list N) :
  drop_while p (a ++ b) = match drop_while p a with [] => drop_while p b | t => t ++ b end.
Proof.
  induction a as [|x a IH]; [reflexivity|]. cbn [app drop_while].
  destruct (p x); [exact IH|reflexivity].
Qed.

Lemma rposition_trim keep bs : (forall b, keep b = negb (is_trim b)) ->
  match rposition keep bs with
  | Some i => (S i <= length bs)%nat /\ rev (drop_while is_trim (rev bs)) = firstn (S i) bs
              /\ drop_while is_trim (rev bs) <> []
  | None => drop_while is_trim (rev bs) = []
  end.
Proof.
  intros Hkeep. induction bs as [|x r IH]; [reflexivity|].
  cbn [rposition rev]. rewrite drop_while_app.
  destruct (rposition keep r) as [i|].
  - destruct IH as (Hi & Hrev & Hne).
    destruct (drop_while is_trim (rev r)) as [|y t] eqn:Ed; [congruence|].
    split; [cbn [length]; lia|]. split; [|destruct t; discriminate].
    rewrite rev_app_distr. change (rev [x]) with [x]. rewrite Hrev. reflexivity.
  - rewrite IH. cbn [drop_while]. rewrite Hkeep.
    destruct (is_trim x); cbn [negb]; [reflexivity|].
    split; [cbn [length]; lia|]. split; [reflexivity|discriminate].
Qed.

(* the trailing trim of the source, whatever form its test for a visible byte has, is Model.trim_value *)
Lemma trim_tie keep off bs : (forall b, keep b = negb (is_trim b)) ->
  match rposition keep bs with
  | Some i => (Nat.leb (i + 1) (length bs) = true) /\ sl_prefix (Sub off bs) (i + 1) = trim_value (Sub off bs)
  | None => Sub off bs = trim_value (Sub off bs)
  end.
Proof.
  intros Hkeep. pose proof (rposition_trim keep bs Hkeep) as H.
  unfold trim_value, rev'. rewrite <- !rev_alt.
  destruct (rposition keep bs) as [i|].
  - destruct H as (Hi & Hrev & Hne). split; [apply Nat.leb_le; lia|].
    destruct (drop_while is_trim (rev bs)) as [|y t] eqn:Ed; [congruence|].
    rewrite <- rev_alt, Hrev. cbn [sl_prefix]. replace (i + 1)%nat with (S i) by lia. reflexivity.
  - rewrite H. reflexivity.
Qed.

Section HeadersTie.
Variable E : env.
Variable fuel0 : nat.
Let fuel := S fuel0.          (* callers pass S (length buf): never 0 *)
Variable hc : hcfg.

Notation L := L_g_headers.
Notation R := (ires L nat sl).

Definition core (l : L) :=
  (g_headers_v_arr l, g_headers_v_num_headers l, g_headers_m1 l, g_headers_v_iter l).

Ltac hdr_unfold :=
  cbv beta iota delta [irun ifun ibind iret ilift iget iset ipart ifail ifault ithrow iguard iguard_idx ireturn
                       bind ret fail part fault_ expect next next_opt peek peek_n peek_ahead advance bump
                       slice slice_skip pos addr remaining commit apos rest pre tokrev
                       g_headers_v_arr g_headers_v_num_headers g_headers_m1 g_headers_v_iter
                       g_headers_m2 g_headers_m3 g_headers_m4 g_headers_m5 g_headers_m6 g_headers_m7
                       set_g_headers_v_arr set_g_headers_v_num_headers set_g_headers_m1 set_g_headers_v_iter
                       set_g_headers_m2 set_g_headers_m3 set_g_headers_m4 set_g_headers_m5
                       set_g_headers_m6 set_g_headers_m7
                       is is_ws CR LF SP HT COLON].

(* outcome of a fragment of generated code against an outcome of the model: `ok` says which
   generated result corresponds to Done; the other outcomes end the call with the four
   locals the caller sees (`core`) as they were *)
Definition sim {A Bv} (k0 : list slot * nat * rval nat * nat)
           (ok : A -> cur -> R Bv -> Prop) (r : R Bv) (o : out A) : Prop :=
  match o with
  | Done a c' => ok a c' r
  | Part => exists l', r = IPart l' /\ core l' = k0
  | Fail e => exists l', r = IFail e l' /\ core l' = k0
  | Fault f => exists l', r = IFault f l' /\ core l' = k0
  end.

Definition st_of (r : rval nat) : status :=
  match r with RComplete n => Complete n | RPartial => Partial | RErr e => Error e end.

Definition hdr_fin (r : R nat) : status * nat * list slot :=
  match r with
  | IDone n l _ => (Complete n, g_headers_v_num_headers l, g_headers_v_arr l)
  | IPart l => (Partial, g_headers_v_num_headers l, g_headers_v_arr l)
  | IFail e l => (Error e, g_headers_v_num_headers l, g_headers_v_arr l)
  | IFault f l => (Faulted f, g_headers_v_num_headers l, g_headers_v_arr l)
  | IExc _ l _ => (Faulted Unreachable, g_headers_v_num_headers l, g_headers_v_arr l)
  end.

(* The bodies of the labelled loops are taken out of the generated term, never restated: `loop_body n` names one,
   `fold_loop n B` puts the name back where a proof has unfolded the enclosing body. *)
Ltac loop_body n :=
  let t := eval cbv beta zeta delta [g_headers_body] in (g_headers_body E fuel hc) in
  match t with context [iloop fuel n ?body] => exact body end.
Ltac fold_loop n B := match goal with |- context [iloop fuel n ?body] => change body with B end.

Definition B2 : I L nat sl unit := ltac:(loop_body 2%nat).
Definition B3 : I L nat sl unit := ltac:(loop_body 3%nat).
Definition B4 : I L nat sl unit := ltac:(loop_body 4%nat).
Definition B6 : I L nat sl unit := ltac:(loop_body 6%nat).
Definition B7 : I L nat sl unit := ltac:(loop_body 7%nat).
Definition B8 : I L nat sl unit := ltac:(loop_body 8%nat).
Definition B9 : I L nat sl unit := ltac:(loop_body 9%nat).
Definition B10 : I L nat sl unit := ltac:(loop_body 10%nat).
Definition B11 : I L nat sl unit := ltac:(loop_body 11%nat).

Ltac computed := eexists; split; reflexivity.
Ltac norm_l l Hc :=
  destruct l as [?arr ?nh ?res ?it ?w ?w ?w ?w ?w ?w]; unfold core in Hc;
  cbn [g_headers_v_arr g_headers_v_num_headers g_headers_m1 g_headers_v_iter] in Hc;
  injection Hc as -> -> -> ->.
(* the loop goes round: the induction hypothesis at the state reached *)
Ltac again f IH := match goal with |- context [iloop f _ _ ?l1 ?c1] => exact (IH l1 c1) end.

(* a case in which the generated code hands on an outcome that ends the call *)
Ltac passes Hs := let l' := fresh "l" in destruct Hs as (l' & -> & Hs); exists l'; exact (conj eq_refl Hs).

Definition skipped (l0 : L) (_ : unit) (c' : cur) (r : R sl) : Prop :=
  exists l', r = IDone (Ext []) l' c' /\ core l' = core l0.

(* The skip-to-end-of-line loop of handle_invalid_char! (four expansions, each with its own label and its own
   local for the byte looked at).  One turn of the model's loop: None when the line has ended. *)
Definition skip_turn (b : N) (e : err) : P (option N) :=
  if is CR b then expect (is LF) e ;;; ret None
  else if is LF b then ret None
  else if is 0 b then fail e
  else b' <- next ;; ret (Some b').

Lemma skip_invalid_line_S f b e c :
  skip_invalid_line (S f) b e c =
  (o <- skip_turn b e ;; match o with None => ret tt | Some b' => skip_invalid_line f b' e end) c.
Proof.
  cbn [skip_invalid_line]. unfold skip_turn.
  destruct (is CR b); [|destruct (is LF b); [reflexivity|destruct (is 0 b); [reflexivity|]]]; unfold bind.
  - destruct (expect (is LF) e c); reflexivity.
  - destruct (next c); reflexivity.
Qed.

Section SkipLine.
Variable lbl : nat.
Variable Bn : I L nat sl unit.
Variable byte : L -> N.
Variable e : err.

Definition skip_turned (l0 : L) (o : option N) (c' : cur) (r : R unit) : Prop :=
  match o with
  | None => exists l', r = IExc (Brk lbl (Ext [])) l' c' /\ core l' = core l0
  | Some b' => exists l', r = IDone tt l' c' /\ core l' = core l0 /\ byte l' = b'
  end.
Hypothesis turn : forall l c, sim (core l) (skip_turned l) (Bn l c) (skip_turn (byte l) e c).

Lemma skip_line_sim : forall f l c,
  sim (core l) (skipped l) (iloop f lbl Bn l c) (skip_invalid_line f (byte l) e c).
Proof.
  induction f as [|f IH]; intros l c; [exists l; split; reflexivity|].
  rewrite iloop_S, skip_invalid_line_S. pose proof (turn l c) as Ht. unfold bind.
  destruct (skip_turn (byte l) e c) as [[b'|] c'| | |]; cbn [sim skip_turned] in Ht |- *.
  - destruct Ht as (l' & -> & Hc & <-). cbn [loop_k]. specialize (IH l' c').
    unfold skipped in IH |- *. rewrite Hc in IH. exact IH.
  - destruct Ht as (l' & -> & Hc). cbn [loop_k]. rewrite Nat.eqb_refl. exists l'. exact (conj eq_refl Hc).
  - passes Ht.
  - passes Ht.
  - passes Ht.
Qed.
End SkipLine.

(* a turn of such a loop, `b` being the local it looks at and `r` the unread rest: both sides computed, case by case *)
Ltac skip_line_turn B b r :=
  unfold B, skip_turn; hdr_unfold;
  destruct (N.eqb b 13);
  [ destruct r as [|b2 r]; hdr_unfold; [computed|]; destruct (N.eqb b2 10); hdr_unfold; computed |];
  destruct (N.eqb b 10); hdr_unfold; [computed|];
  destruct (N.eqb b 0); hdr_unfold; [computed|];
  destruct r as [|b2 r]; hdr_unfold; [computed|];
  eexists; split; [reflexivity|split; reflexivity].

Lemma skip3 : forall f l c,
  sim (core l) (skipped l) (iloop f 3 B3 l c) (skip_invalid_line f (g_headers_m2 l) HeaderName c).
Proof.
  apply (skip_line_sim 3 B3 g_headers_m2). intros [arr nh res it b m3 m4 m5 m6 m7] [p t r]. skip_line_turn B3 b r.
Qed.
Lemma skip6 : forall f l c,
  sim (core l) (skipped l) (iloop f 6 B6 l c) (skip_invalid_line f (g_headers_m4 l) HeaderName c).
Proof.
  apply (skip_line_sim 6 B6 g_headers_m4). intros [arr nh res it m2 m3 b m5 m6 m7] [p t r]. skip_line_turn B6 b r.
Qed.
Lemma skip9 : forall f l c,
  sim (core l) (skipped l) (iloop f 9 B9 l c) (skip_invalid_line f (g_headers_m6 l) HeaderValue c).
Proof.
  apply (skip_line_sim 9 B9 g_headers_m6). intros [arr nh res it m2 m3 m4 m5 b m7] [p t r]. skip_line_turn B9 b r.
Qed.
Lemma skip11 : forall f l c,
  sim (core l) (skipped l) (iloop f 11 B11 l c) (skip_invalid_line f (g_headers_m7 l) HeaderValue c).
Proof.
  apply (skip_line_sim 11 B11 g_headers_m7). intros [arr nh res it m2 m3 m4 m5 m6 b] [p t r]. skip_line_turn B11 b r.
Qed.

(* The stage that is the loop labelled n, with simulation lemma H: split on the model's outcome; `passes`
   closes the cases in which the generated code hands the stage's result on. *)
Ltac loop_stage n H :=
  match goal with |- context [iloop fuel n _ ?l1 ?c1] =>
    let Hs := fresh "Hs" in
    pose proof (H l1 c1) as Hs; revert Hs; hdr_unfold; intro Hs;
    match type of Hs with sim _ _ _ ?o => destruct o as [?a ?c| | |] eqn:?Eo end; cbn [sim] in Hs
  end.

(* handle_invalid_char! has gone round its loop: slice, `continue 'headers` *)
Definition continued {A Bv} (l0 : L) (_ : A) (c' : cur) (r : R Bv) : Prop :=
  exists l', r = IExc (Cnt 1) l' c' /\ core l' = core l0.

Lemma ws2 : forall f l c,
  iloop f 2 B2 l c = match skip_ws_peek f c with
                     | Done _ c' => IDone (Ext []) l c' | Part => IPart l
                     | Fail e => IFail e l | Fault x => IFault x l end.
Proof.
  intros f; induction f as [|f IH]; intros l [p t r]; [reflexivity|].
  cbn [skip_ws_peek iloop]. unfold B2 at 1. hdr_unfold.
  destruct r as [|b r]; cbn [hd_error]; hdr_unfold; cbn [Nat.eqb]; [reflexivity|].
  destruct (N.eqb b 32 || N.eqb b 9); hdr_unfold; cbn [Nat.eqb]; [apply IH|reflexivity].
Qed.

(* a value is always a slice of the buffer, never the `""` literal; a dropped line is
   `continue 'headers` *)
Definition valued {Bv} (res : sl -> cur -> L -> R Bv) (l0 : L) (a : vres) (c' : cur) (r : R Bv) : Prop :=
  match a with
  | VValue v => exists l', r = res v c' l' /\ (core l' = core l0 /\ exists off bs, v = Sub off bs)
  | VDropped => continued l0 a c' r
  end.
Definition broke7 {A} (v : sl) (c : cur) (l : L) : R A := IExc (Brk 7 v) l c.

(* maybe_continue_after_obsolete_line_folding!: the model's fold_check and the generated peek, destructed side by
   side.  Three goals are left: the next line starts with SP or HT, it does not, folding is not allowed. *)
Ltac fold_check_step r :=
  unfold fold_check; destruct (allow_obsolete_multiline_headers hc); hdr_unfold;
  [ destruct r as [|?b r]; cbn [hd_error]; hdr_unfold; [computed|];
    match goal with |- context [N.eqb ?b 32 || N.eqb ?b 9] => destruct (N.eqb b 32 || N.eqb b 9) end;
    hdr_unfold; cbn [Nat.eqb drop Nat.leb sl_prefix firstn]
  | cbn [Nat.eqb drop Nat.leb sl_prefix firstn] ].

(* the value has been sliced and is broken out with *)
Ltac value_found := eexists; split; [reflexivity|]; split; [reflexivity|]; do 2 eexists; reflexivity.

Lemma value_lines_sim : forall f l c,
  sim (core l) (valued broke7 l) (iloop f 10 B10 l c) (value_lines E fuel hc f c).
Proof.
  intros f; induction f as [|f IH]; intros [arr nh res it vb0 vb1 vb2 vb3 vb4 vb5] c;
    cbn [value_lines iloop]; [hdr_unfold; computed|].
  unfold B10 at 1. fold_loop 11%nat B11. hdr_unfold.
  destruct (s_value E fuel c) as [[] [p t r]| | |]; hdr_unfold; try computed.
  destruct r as [|b r]; hdr_unfold; [computed|].
  destruct (N.eqb b 13); hdr_unfold.
  { destruct r as [|b2 r]; hdr_unfold; [computed|].
    destruct (N.eqb b2 10); hdr_unfold; [|computed].
    fold_check_step r; [again f IH | value_found | value_found]. }
  destruct (N.eqb b 10); hdr_unfold.
  { fold_check_step r; [again f IH | value_found | value_found]. }
  unfold handle_invalid. destruct (ignore_invalid_headers hc); cbn [negb]; hdr_unfold; [|computed].
  loop_stage 11%nat (skip11 fuel); passes Hs.
Qed.

Lemma ws_after_colon_sim : forall f l c,
  sim (core l) (valued broke7 l)
      ((iloop f 8 B8 ;;~ iloop fuel 10 B10 ;;~ (ifault Unreachable : I L nat sl unit))%imp l c)
      (ws_after_colon E fuel hc f c).
Proof.
  intros f; induction f as [|f IH]; intros [arr nh res it vb0 vb1 vb2 vb3 vb4 vb5] [p t r];
    cbn [ws_after_colon]; unfold ibind at 1; cbn [iloop]; [hdr_unfold; computed|].
  unfold B8 at 1. fold_loop 9%nat B9. hdr_unfold.
  destruct r as [|b r]; hdr_unfold; [computed|].
  destruct (N.eqb b 32 || N.eqb b 9); hdr_unfold; cbn [Nat.eqb]; [again f IH|].
  destruct (c_value E b); hdr_unfold; cbn [Nat.eqb].
  { loop_stage 10%nat (value_lines_sim fuel); [destruct a|..]; passes Hs. }
  destruct (N.eqb b 13); hdr_unfold.
  { destruct r as [|b2 r]; hdr_unfold; [computed|].
    destruct (N.eqb b2 10); hdr_unfold; [|computed].
    fold_check_step r; [again f IH | value_found | value_found]. }
  destruct (N.eqb b 10); hdr_unfold; cbn [negb].
  { fold_check_step r; [again f IH | value_found | value_found]. }
  unfold handle_invalid. destruct (ignore_invalid_headers hc); cbn [negb]; hdr_unfold; [|computed].
  loop_stage 9%nat (skip9 fuel); passes Hs.
Qed.

Definition done_ {A} (v : A) (c : cur) (l : L) : R A := IDone v l c.

(* the 'value loop is left in its first turn, by `break 'value v` or by `continue 'headers` *)
Lemma value_sim l c :
  sim (core l) (valued done_ l) (iloop fuel 7 B7 l c) (ws_after_colon E fuel hc fuel c).
Proof.
  change (iloop fuel 7 B7 l c) with (loop_k (iloop fuel0 7 B7) 7 (B7 l c)).
  unfold B7. fold_loop 8%nat B8. fold_loop 10%nat B10.
  pose proof (ws_after_colon_sim fuel l c) as Hs.
  destruct (ws_after_colon E fuel hc fuel c) as [[|v] c'| | |]; cbn [sim valued] in Hs |- *; passes Hs.
Qed.

(* None: the line was invalid and has been skipped *)
Definition name_part : P (option sl) :=
  s_name E fuel ;;;
  b <- next ;;
  name <- slice_skip 1 ;;
  colon <- (if is COLON b then ret None
            else if allow_spaces_after_header_name hc then after_name_ws fuel b
            else ret (Some b)) ;;
  match colon with
  | Some bad => handle_invalid fuel hc bad HeaderName ;;; ret None
  | None => ret (Some name)
  end.
Definition line_rest (n : option sl) : P hstep :=
  match n with
  | None => ret HContinue
  | Some name =>
      v <- ws_after_colon E fuel hc fuel ;;
      match v with
      | VDropped => ret HContinue
      | VValue v => ret (HHeader name v)
      end
  end.

Lemma header_line_eq first c :
  header_line E fuel hc first c =
  (b <- next ;;
   if is CR b then expect (is LF) NewLine ;;; ret HEnd
   else if is LF b then ret HEnd
   else if negb (c_name E b) then
     if allow_space_before_first_header_name hc && first && is_ws b then
       skip_ws_peek fuel ;;; slice ;;; ret HContinue
     else handle_invalid fuel hc b HeaderName ;;; ret HContinue
   else n <- name_part ;; line_rest n) c.
Proof.
  unfold header_line. apply bind_ext. intros b c1.
  destruct (is CR b); [reflexivity|]. destruct (is LF b); [reflexivity|].
  destruct (negb (c_name E b)); [reflexivity|]. unfold name_part, bind.
  destruct (s_name E fuel c1) as [u c2| | |]; [|reflexivity..].
  destruct (next c2) as [b2 c3| | |]; [|reflexivity..].
  destruct (slice_skip 1 c3) as [name c4| | |]; [|reflexivity..].
  match goal with |- context [?colon c4] => destruct (colon c4) as [[bad|] c5| | |] end; [|reflexivity..].
  destruct (handle_invalid fuel hc bad HeaderName c5); reflexivity.
Qed.

Definition named (l0 : L) (n : option sl) (c' : cur) (r : R sl) : Prop :=
  match n with
  | Some name => exists l', r = IDone name l' c' /\ core l' = core l0
  | None => continued l0 n c' r
  end.

(* the 'name loop is left in its first turn, by `break 'name name` or by `continue 'headers` *)
Lemma name_sim l c : sim (core l) (named l) (iloop fuel 4 B4 l c) (name_part c).
Proof.
  change (iloop fuel 4 B4 l c) with (loop_k (iloop fuel0 4 B4) 4 (B4 l c)).
  unfold B4, name_part, loop_k. fold_loop 6%nat B6.
  destruct l as [arr nh res it vb0 vb1 vb2 vb3 vb4 vb5]. hdr_unfold.
  destruct (s_name E fuel c) as [[] [p1 t1 r1]| | |]; hdr_unfold; try computed.
  destruct r1 as [|b1 r1]; hdr_unfold; [computed|]. cbn [drop].
  destruct (N.eqb b1 58); hdr_unfold; cbn [Nat.eqb]; [computed|].
  grab_loop 5%nat B5.
  assert (H5 : forall f5 l c,
    sim (core l)
        (fun o c' r =>
           match o with
           | None => exists l', r = IExc (Brk 4 (Sub p1 (rev' t1))) l' c' /\ core l' = core l
           | Some b' => exists l', r = IDone (Ext []) l' c' /\ core l' = core l /\ g_headers_m3 l' = b'
           end)
        (iloop f5 5 B5 l c) (after_name_ws f5 (g_headers_m3 l) c)).
  { intros f5; induction f5 as [|f5 IH5]; intros [a n rs i5 v0 bb v2 v3 v4 v5] [p5 t5 r5];
      cbn [after_name_ws iloop]; [hdr_unfold; computed|].
    unfold B5 at 1. hdr_unfold.
    destruct (N.eqb bb 32 || N.eqb bb 9); hdr_unfold; cbn [Nat.eqb]; [|repeat eexists].
    destruct r5 as [|b5 r5]; hdr_unfold; [computed|].
    destruct (N.eqb b5 58); hdr_unfold; cbn [Nat.eqb]; [computed|again f5 IH5]. }
  clearbody B5.
  (* with or without the 'name whitespace loop: the colon was found behind spaces and the name is broken out
     with, or a byte that is not the colon is left in m3 *)
  match goal with |- sim ?k _ _ (match ?m with Done _ _ => _ | _ => _ end) =>
  match goal with |- context [match ?g with IDone _ _ _ => _ | _ => _ end] =>
  match g with (if allow_spaces_after_header_name hc then _ else _) _ _ =>
    assert (Hws : sim k (fun o c' r =>
                     match o with
                     | None => exists l', r = IExc (Brk 4 (Sub p1 (rev' t1))) l' c' /\ core l' = k
                     | Some bad => exists l', r = IDone tt l' c' /\ core l' = k /\ g_headers_m3 l' = bad
                     end) g m);
    [|destruct m as [[bad|] c'| | |]; cbn [sim] in Hws |- *; [|passes Hws..]]
  end end end.
  { destruct (allow_spaces_after_header_name hc); [|repeat eexists].
    loop_stage 5%nat (H5 fuel); [destruct a|..]; passes Hs. }
  destruct Hws as (l' & -> & Hc & Hb). norm_l l' Hc. cbn [g_headers_m3] in Hb. subst. hdr_unfold.
  unfold handle_invalid. destruct (ignore_invalid_headers hc); cbn [negb]; hdr_unfold; [|computed].
  loop_stage 6%nat (skip6 fuel); passes Hs.
Qed.

Definition fin1 (r : R sl) : status * nat * list slot :=
  match r with
  | IDone _ l _ => (st_of (g_headers_m1 l), g_headers_v_num_headers l, g_headers_v_arr l)
  | IPart l => (Partial, g_headers_v_num_headers l, g_headers_v_arr l)
  | IFail e l => (Error e, g_headers_v_num_headers l, g_headers_v_arr l)
  | IFault f l => (Faulted f, g_headers_v_num_headers l, g_headers_v_arr l)
  | IExc (Ret n) l _ => (Complete n, g_headers_v_num_headers l, g_headers_v_arr l)
  | IExc _ l _ => (Faulted Unreachable, g_headers_v_num_headers l, g_headers_v_arr l)
  end.

Hypothesis fwd_name : forall f, mono (s_name E f).
Hypothesis fwd_value : forall f, mono (s_value E f).

Definition turned (start : nat) (arr : list slot) (nh : nat) (h : hstep) (c' : cur) (r : R unit) : Prop :=
  match h with
  | HEnd => exists l', r = IExc (Brk 1 (Ext [])) l' c' /\ core l' = (arr, nh, RComplete (apos c' - start)%nat, nh)
  | HContinue => exists l', r = IExc (Cnt 1) l' c' /\ core l' = (arr, nh, RErr TooManyHeaders, nh)
  | HHeader name value =>
      match write_slot nh (SWritten name (trim_value value)) arr with
      | Some arr' => exists l', r = IDone tt l' c' /\ core l' = (arr', S nh, RErr TooManyHeaders, S nh)
      | None => exists l', r = IExc (Brk 1 (Ext [])) l' c' /\ core l' = (arr, nh, RErr TooManyHeaders, nh)
      end
  end.

Section Loop.
Variable c0 : cur.
Variable B1 : I L nat sl unit.
Hypothesis turn : forall arr nh l c, core l = (arr, nh, RErr TooManyHeaders, nh) -> (apos c0 <= apos c)%nat ->
  sim (arr, nh, RErr TooManyHeaders, nh) (turned (apos c0) arr nh) (B1 l c)
      (header_line E fuel hc (Nat.eqb nh 0) c).

Lemma headers_loop_sim : forall f arr nh l c, core l = (arr, nh, RErr TooManyHeaders, nh) -> step c0 c ->
  fin1 (iloop f 1 B1 l c) = headers_loop E fuel hc f (apos c0) nh arr c.
Proof.
  induction f as [|f IH]; intros arr nh l c Hl Hst; [norm_l l Hl; reflexivity|].
  rewrite iloop_S. cbn [headers_loop]. pose proof (turn arr nh l c Hl (proj1 Hst)) as Hs.
  destruct (header_line E fuel hc (Nat.eqb nh 0) c) as [h c'| | |] eqn:Eh; cbn [sim stage] in Hs |- *;
    [|destruct Hs as (l' & -> & Hc); norm_l l' Hc; reflexivity..].
  apply (mono_header_line E fuel hc fwd_name fwd_value) in Eh. pose proof (step_trans _ _ _ Hst Eh) as Hst'.
  destruct h as [| |name value]; cbn [turned] in Hs.
  - destruct Hs as (l' & -> & Hc). norm_l l' Hc. reflexivity.
  - destruct Hs as (l' & -> & Hc). exact (IH arr nh l' c' Hc Hst').
  - destruct (write_slot nh _ arr) as [arr'|]; destruct Hs as (l' & -> & Hc);
      [exact (IH arr' (S nh) l' c' Hc Hst')|norm_l l' Hc; reflexivity].
Qed.
End Loop.

Theorem tie_headers arr0 c0 :
  hdr_fin (ifun (g_headers_body E fuel hc) (g_headers_init arr0) c0)
  = parse_headers_iter_uninit E fuel hc arr0 c0.
Proof.
  unfold g_headers_body, parse_headers_iter_uninit, g_headers_init.
  fold_loop 2%nat B2. fold_loop 3%nat B3. fold_loop 4%nat B4. fold_loop 7%nat B7.
  destruct c0 as [p0 t0 r0]. hdr_unfold.
  grab_loop 1%nat B1.
  match goal with |- context [iloop fuel 1 B1 ?l ?c] => transitivity (fin1 (iloop fuel 1 B1 l c)) end.
  { destruct (iloop fuel 1 B1 _ _) as [v l' c'|l'|e l'|f l'|x l' c']; try reflexivity.
    - destruct l' as [arr' nh' res' it' ?w ?w ?w ?w ?w ?w]. destruct res'; reflexivity.
    - destruct x; reflexivity. }
  apply (headers_loop_sim (mkcur p0 t0 r0) B1); [|reflexivity|apply step_refl].
  clear arr0. intros arr nh l [p t r] Hl Hst. norm_l l Hl. rewrite header_line_eq.
  unfold apos in Hst. cbn [tokrev pre] in Hst. unfold B1. clear B1. hdr_unfold.
  destruct r as [|b r]; hdr_unfold; [computed|].
  destruct (N.eqb b 13); hdr_unfold.
  { destruct r as [|b2 r]; hdr_unfold; [computed|].
    destruct (N.eqb b2 10); hdr_unfold; [|computed].
    rewrite (proj2 (Nat.leb_le _ _)) by (clear - Hst; cbn [length]; lia). hdr_unfold. computed. }
  destruct (N.eqb b 10); hdr_unfold.
  { rewrite (proj2 (Nat.leb_le _ _)) by (clear - Hst; cbn [length]; lia). hdr_unfold. computed. }
  destruct (c_name E b); cbn [negb]; hdr_unfold.
  2: { destruct (allow_space_before_first_header_name hc && Nat.eqb nh 0 && (N.eqb b 32 || N.eqb b 9));
         hdr_unfold.
       - rewrite ws2. destruct (skip_ws_peek fuel _) as [[] [p2 t2 r2]| | |]; hdr_unfold; cbn [Nat.eqb]; computed.
       - unfold handle_invalid. destruct (ignore_invalid_headers hc); cbn [negb]; hdr_unfold; [|computed].
         loop_stage 3%nat (skip3 fuel); passes Hs. }
  loop_stage 4%nat name_sim; [|passes Hs..].
  destruct a as [name|]; cbn [named line_rest] in Hs |- *; [|passes Hs].
  destruct Hs as (l' & -> & Hc). norm_l l' Hc. hdr_unfold.
  loop_stage 7%nat value_sim; [|passes Hs..].
  destruct a as [|v]; cbn [valued] in Hs; [passes Hs|].
  unfold done_ in Hs. destruct Hs as (l' & -> & Hc & off & bs & ->). norm_l l' Hc. hdr_unfold.
  cbn [sl_bytes sim turned].
  destruct (Nat.ltb nh (length arr)) eqn:Hlt; hdr_unfold.
  - apply Nat.ltb_lt in Hlt.
    match goal with |- context [rposition ?k bs] => set (keep := k) end.
    assert (Hkeep : forall b, keep b = negb (is_trim b)).
    { intros b'. unfold keep, is_trim, is, SP, HT, CR, LF.
      destruct (N.eqb b' 32), (N.eqb b' 9), (N.eqb b' 13), (N.eqb b' 10); reflexivity. }
    pose proof (trim_tie keep off bs Hkeep) as Ht.
    destruct (write_slot_some arr nh (SWritten name (trim_value (Sub off bs))) Hlt) as (arr' & Hw).
    destruct (rposition keep bs) as [i|].
    + (* a byte is kept: the value is cut behind the last such *)
      destruct Ht as (Hle & Hpre). rewrite Hle. hdr_unfold. rewrite Hpre, Hw. hdr_unfold.
      rewrite Nat.add_1_r. computed.
    + (* none is: nothing to cut *)
      rewrite <- Ht in Hw |- *. hdr_unfold. rewrite Hw. hdr_unfold.
      rewrite Nat.add_1_r. computed.
  - apply Nat.ltb_ge in Hlt. rewrite (write_slot_none arr nh _ Hlt). computed.
Qed.
End HeadersTie.
