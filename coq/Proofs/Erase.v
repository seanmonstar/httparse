(* Erase.v -- C20: the cost model (the textual copies Generated/C*.v compiled against CursorC.v, sequenced by
   CostTop.v) computes, once its two work counters are forgotten, exactly what the model (Scan.v, Model.v,
   Backends.v) computes.  So the linear-work theorems of Proofs/Work.v are statements about the executions of
   the model -- and, through source_tie, of the translated source -- not about a look-alike. *)
From Coq Require Import List NArith Lia Arith.
From HV Require Cursor Scan Model Api Backends.
From HV Require CursorC CostTop.
From HV.Generated Require CScan CModel CBackends.
From HV.Generated Require Import Cfg.

Module P := HV.Cursor.
Module C := HV.CursorC.
Module S := HV.Scan.
Module CS := HV.Generated.CScan.
Module M := HV.Model.
Module CM := HV.Generated.CModel.

Definition er (c : C.cur) : P.cur := P.mkcur (C.pre c) (C.tokrev c) (C.rest c).
Definition ero {A} (o : C.out A) : P.out A :=
  match o with
  | C.Done a c => P.Done a (er c)
  | C.Part _ _ => P.Part
  | C.Fail e _ _ => P.Fail e
  | C.Fault f => P.Fault f
  end.
Definition ersf {A A'} (g : A -> A') (mc : C.P A) (m : P.P A') : Prop :=
  forall c, match mc c, m (er c) with
            | C.Done a c', P.Done a' c'' => g a = a' /\ er c' = c''
            | C.Part _ _, P.Part => True
            | C.Fail e _ _, P.Fail e' => e = e'
            | C.Fault f, P.Fault f' => f = f'
            | _, _ => False
            end.
Definition ers {A} (mc : C.P A) (m : P.P A) : Prop := ersf (fun a => a) mc m.

(* the result types that CModel.v declares again *)
Definition hc_er (h : CM.hcfg) : M.hcfg :=
  M.mkhcfg (CM.allow_spaces_after_header_name h) (CM.allow_obsolete_multiline_headers h)
           (CM.allow_space_before_first_header_name h) (CM.ignore_invalid_headers h).
Definition vres_er (v : CM.vres) : M.vres := match v with CM.VDropped => M.VDropped | CM.VValue s => M.VValue s end.
Definition hstep_er (h : CM.hstep) : M.hstep :=
  match h with CM.HEnd => M.HEnd | CM.HContinue => M.HContinue | CM.HHeader n v => M.HHeader n v end.

Lemma ersf_bind {A A' B B'} (g : A -> A') (h : B -> B') mc m kc k :
  ersf g mc m -> (forall a, ersf h (kc a) (k (g a))) -> ersf h (C.bind mc kc) (P.bind m k).
Proof.
  intros Hm Hk c. unfold C.bind, P.bind. specialize (Hm c).
  destruct (mc c) as [a c1|tk tr|e tk tr|f], (m (er c)) as [a' c1'| |e'|f']; try contradiction; auto.
  destruct Hm as [<- <-]. exact (Hk a c1).
Qed.
Lemma ers_bind {A B} (mc : C.P A) (m : P.P A) (kc : A -> C.P B) (k : A -> P.P B) :
  ers mc m -> (forall a, ers (kc a) (k a)) -> ers (C.bind mc kc) (P.bind m k).
Proof. exact (ersf_bind (fun a => a) (fun b => b) mc m kc k). Qed.

Lemma ersf_ret {A A'} (g : A -> A') a : ersf g (C.ret a) (P.ret (g a)).
Proof. intros c. cbn. auto. Qed.
Lemma ers_ret {A} (a : A) : ers (C.ret a) (P.ret a).
Proof. exact (ersf_ret (fun a => a) a). Qed.
Lemma ersf_fail {A A'} (g : A -> A') e : ersf g (C.fail e) (P.fail e).
Proof. intros c. reflexivity. Qed.
Lemma ersf_part {A A'} (g : A -> A') : ersf g C.part P.part.
Proof. intros c. exact Logic.I. Qed.
Lemma ersf_fault {A A'} (g : A -> A') f : ersf g (C.fault_ f) (P.fault_ f).
Proof. intros c. reflexivity. Qed.

(* A cost program and the model program it copies have the same text, one over each cursor, and `ego` proves
   `ersf g mc m` by following that text: a leaf by its rule above, an `if` or `match` by cases on the scrutinee (the
   same on both sides up to conversion or up to g), a bind by ersf_bind, whose first half is `known` from the
   database `ers` or from the context.  `ego` stops at any other shape. *)
Create HintDb ers.
Ltac known := solve [eauto 3 with ers nocore].
Ltac ego :=
  repeat lazymatch goal with
  | |- ers ?mc ?m => change (ersf (fun a => a) mc m)
  | |- ersf ?g (C.ret ?x) _ => exact (ersf_ret g x)
  | |- ersf _ (C.fail _) _ => apply ersf_fail
  | |- ersf _ C.part _ => apply ersf_part
  | |- ersf _ (C.fault_ _) _ => apply ersf_fault
  | |- ersf _ (match ?x with _ => _ end) (match ?x' with _ => _ end) =>
      try change x' with x; destruct x; cbn [vres_er hstep_er]
  | |- ersf _ (C.bind (if _ then _ else _) _) _ => eapply (ersf_bind (fun a => a)); [|intros ?]
  | |- ersf _ (C.bind ?mc _) (P.bind ?m _) =>
      first [ eapply (ersf_bind (fun a => a)); [change (ers mc m); known|intros ?]
            | eapply ersf_bind; [known|intros ?] ]
  | |- ersf (fun a => a) ?mc ?m => change (ers mc m); known
  | |- _ => known
  end.

Lemma ers_tick n : ers (C.tick n) (P.ret tt).
Proof. intros [p t r tk tr]. cbn. auto. Qed.
Lemma ers_peek : ers C.peek P.peek.
Proof. intros [p t r tk tr]. cbn. auto. Qed.
Lemma ers_pos : ers C.pos P.pos.
Proof. intros [p t r tk tr]. cbn. auto. Qed.
Lemma ers_remaining : ers C.remaining P.remaining.
Proof. intros [p t r tk tr]. cbn. auto. Qed.
Lemma ers_next : ers C.next P.next.
Proof. intros [p t r tk tr]. unfold C.next, P.next. cbn. destruct r; cbn; auto. Qed.
Lemma ers_peek_n n : ers (C.peek_n n) (P.peek_n n).
Proof. intros [p t r tk tr]. cbn. auto. Qed.
Lemma ers_peek_ahead n : ers (C.peek_ahead n) (P.peek_ahead n).
Proof. intros [p t r tk tr]. unfold C.peek_ahead, P.peek_ahead. cbn. destruct (P.drop n r); cbn; auto. Qed.
Lemma ers_advance n : ers (C.advance n) (P.advance n).
Proof. intros [p t r tk tr]. unfold C.advance, P.advance. cbn. destruct (P.shift n t r) as [[a b]|]; cbn; auto. Qed.
Lemma ers_bump : ers C.bump P.bump.
Proof. apply ers_advance. Qed.
Lemma ers_slice : ers C.slice P.slice.
Proof. intros [p t r tk tr]. cbn. auto. Qed.
Lemma ers_slice_skip k : ers (C.slice_skip k) (P.slice_skip k).
Proof. intros [p t r tk tr]. unfold C.slice_skip, P.slice_skip. cbn. destruct (P.drop k t); cbn; auto. Qed.
#[global] Hint Resolve ers_peek ers_pos ers_next ers_peek_n ers_peek_ahead ers_advance ers_slice ers_slice_skip : ers.

Lemma ers_expect p e : ers (C.expect p e) (P.expect p e).
Proof. unfold C.expect, P.expect. ego. Qed.
#[global] Hint Resolve ers_expect : ers.
Lemma ers_space e : ers (C.space e) (P.space e).
Proof. unfold C.space, P.space. ego. Qed.
Lemma ers_newline : ers C.newline P.newline.
Proof. unfold C.newline, P.newline. ego. Qed.
#[global] Hint Resolve ers_space ers_newline : ers.

Lemma ers_swar_loop f W kernel cls : ers (CS.swar_loop f W kernel cls) (S.swar_loop f W kernel cls).
Proof. induction f as [|f IH]; cbn [CS.swar_loop S.swar_loop]; ego. Qed.

Lemma first_bad_eq : CS.first_bad = S.first_bad.
Proof. reflexivity. Qed.

Lemma ers_swar_name_loop f W cls : ers (CS.swar_name_loop f W cls) (S.swar_name_loop f W cls).
Proof.
  induction f as [|f IH]; cbn [CS.swar_name_loop S.swar_name_loop]; ego.
  (* the tail is written out as a function of the cursor *)
  intros [p t r tk tr]. exact (ers_advance (S.first_bad cls r) (C.mkcur p t r tk tr)).
Qed.

Lemma ers_simd_loop f G K R kernel fbc fb : ers fbc fb ->
  ers (CS.simd_loop f G K R kernel fbc) (S.simd_loop f G K R kernel fb).
Proof. intros Hf. induction f as [|f IH]; cbn [CS.simd_loop S.simd_loop]; ego. Qed.

Lemma utf8_valid_eq : CM.utf8_valid = M.utf8_valid. Proof. reflexivity. Qed.
Lemma list_eqb_eq : CM.list_eqb = M.list_eqb. Proof. reflexivity. Qed.
Lemma trim_value_eq : CM.trim_value = M.trim_value. Proof. reflexivity. Qed.

Definition env_ers (CE : CS.env) (E : S.env) : Prop :=
  CS.c_method CE = S.c_method E /\ CS.c_uri CE = S.c_uri E /\ CS.c_name CE = S.c_name E /\
  CS.c_value CE = S.c_value E /\
  (forall f, ers (CS.s_uri CE f) (S.s_uri E f)) /\ (forall f, ers (CS.s_value CE f) (S.s_value E f)) /\
  (forall f, ers (CS.s_name CE f) (S.s_name E f)).

Lemma ers_skip_empty_lines fuel : ers (CM.skip_empty_lines fuel) (M.skip_empty_lines fuel).
Proof.
  unfold CM.skip_empty_lines, M.skip_empty_lines.
  induction fuel as [|f IH]; cbn [CM.skip_empty_lines_f M.skip_empty_lines_f]; ego.
Qed.
Lemma ers_skip_spaces fuel : ers (CM.skip_spaces fuel) (M.skip_spaces fuel).
Proof.
  unfold CM.skip_spaces, M.skip_spaces.
  induction fuel as [|f IH]; cbn [CM.skip_spaces_f M.skip_spaces_f]; ego.
Qed.
Lemma ers_parse_version : ers CM.parse_version M.parse_version.
Proof. unfold CM.parse_version, M.parse_version. ego. Qed.
Lemma ers_parse_code : ers CM.parse_code M.parse_code.
Proof. unfold CM.parse_code, M.parse_code. ego. Qed.
Lemma ers_parse_reason fuel : ers (CM.parse_reason fuel) (M.parse_reason fuel).
Proof.
  unfold CM.parse_reason, M.parse_reason. generalize false.
  induction fuel as [|f IH]; intros seen; cbn [CM.parse_reason_f M.parse_reason_f]; ego.
Qed.
Lemma ers_skip_invalid_line f : forall b e, ers (CM.skip_invalid_line f b e) (M.skip_invalid_line f b e).
Proof. induction f as [|f IH]; intros b e; cbn [CM.skip_invalid_line M.skip_invalid_line]; ego. Qed.
#[global] Hint Resolve ers_skip_empty_lines ers_skip_spaces ers_parse_version ers_parse_code ers_parse_reason
  ers_skip_invalid_line : ers.
Lemma ers_handle_invalid fuel hc b e : ers (CM.handle_invalid fuel hc b e) (M.handle_invalid fuel (hc_er hc) b e).
Proof. unfold CM.handle_invalid, M.handle_invalid. ego. Qed.
Lemma ers_skip_ws_peek f : ers (CM.skip_ws_peek f) (M.skip_ws_peek f).
Proof. induction f as [|f IH]; cbn [CM.skip_ws_peek M.skip_ws_peek]; ego. Qed.
Lemma ers_after_name_ws f : forall b, ers (CM.after_name_ws f b) (M.after_name_ws f b).
Proof. induction f as [|f IH]; intros b; cbn [CM.after_name_ws M.after_name_ws]; ego. Qed.
Lemma ers_fold_check hc : ers (CM.fold_check hc) (M.fold_check (hc_er hc)).
Proof. unfold CM.fold_check, M.fold_check. ego. Qed.
#[global] Hint Resolve ers_handle_invalid ers_skip_ws_peek ers_after_name_ws ers_fold_check : ers.

(* the stages over an environment: its class tables are rewritten first, its scanners are in the context *)
Section WithEnv.
Variable CE : CS.env.
Variable E : S.env.
Hypothesis HE : env_ers CE E.
Variable fuel : nat.

Lemma ers_parse_token_f f : ers (CM.parse_token_f CE f) (M.parse_token_f E f).
Proof.
  destruct HE as (Hm & _). induction f as [|f IH]; cbn [CM.parse_token_f M.parse_token_f]; rewrite ?Hm; ego.
Qed.
Lemma ers_parse_token : ers (CM.parse_token CE fuel) (M.parse_token E fuel).
Proof.
  pose proof (ers_parse_token_f fuel). destruct HE as (Hm & _). unfold CM.parse_token, M.parse_token. rewrite Hm. ego.
Qed.
Lemma ers_parse_method : ers (CM.parse_method CE fuel) (M.parse_method E fuel).
Proof. pose proof ers_parse_token. unfold CM.parse_method, M.parse_method. ego. Qed.
Lemma ers_parse_uri : ers (CM.parse_uri CE fuel) (M.parse_uri E fuel).
Proof. destruct HE as (_ & _ & _ & _ & Hu & _). unfold CM.parse_uri, M.parse_uri. ego. Qed.

Variable hc : CM.hcfg.

Lemma ers_value_lines f : ersf vres_er (CM.value_lines CE fuel hc f) (M.value_lines E fuel (hc_er hc) f).
Proof.
  destruct HE as (_ & _ & _ & _ & _ & Hv & _). induction f as [|f IH]; cbn [CM.value_lines M.value_lines]; ego.
Qed.

Lemma ers_ws_after_colon f : ersf vres_er (CM.ws_after_colon CE fuel hc f) (M.ws_after_colon E fuel (hc_er hc) f).
Proof.
  destruct HE as (_ & _ & _ & Hcv & _). pose proof (ers_value_lines fuel).
  induction f as [|f IH]; cbn [CM.ws_after_colon M.ws_after_colon]; rewrite ?Hcv; ego.
  (* the empty value is written out as a function of the cursor *)
  all: intros [p t r tk tr]; cbn; auto.
Qed.

Lemma ers_header_line first :
  ersf hstep_er (CM.header_line CE fuel hc first) (M.header_line E fuel (hc_er hc) first).
Proof.
  destruct HE as (_ & _ & Hcn & _ & _ & _ & Hn). pose proof (ers_ws_after_colon fuel).
  unfold CM.header_line, M.header_line. rewrite Hcn. ego.
Qed.

End WithEnv.
#[global] Hint Resolve ers_parse_method ers_parse_uri ers_header_line : ers.

Module CB := HV.Generated.CBackends.
Module B := HV.Backends.

Lemma ers_swar_uri W f : ers (CB.swar_uri W f) (B.swar_uri W f). Proof. apply ers_swar_loop. Qed.
Lemma ers_swar_value W f : ers (CB.swar_value W f) (B.swar_value W f). Proof. apply ers_swar_loop. Qed.
Lemma ers_swar_name W f : ers (CB.swar_name W f) (B.swar_name W f). Proof. apply ers_swar_name_loop. Qed.

Lemma env_mk_ers cu cv cn u v n :
  (forall f, ers (cu f) (u f)) -> (forall f, ers (cv f) (v f)) -> (forall f, ers (cn f) (n f)) ->
  env_ers (CB.mk cu cv cn) (B.mk u v n).
Proof. intros Hu Hv Hn. unfold env_ers. cbn. repeat apply conj; trivial. Qed.

Lemma env_swar_ers W : env_ers (CB.env_swar W) (B.env_swar W).
Proof. apply env_mk_ers; intros f; [apply ers_swar_uri|apply ers_swar_value|apply ers_swar_name]. Qed.
(* each vectored scanner is simd_loop, whatever its constants, over the SWAR scanner as fallback *)
Lemma env_sse42_ers W : env_ers (CB.env_sse42 W) (B.env_sse42 W).
Proof.
  apply env_mk_ers; intros f; [apply ers_simd_loop, ers_swar_uri|apply ers_simd_loop, ers_swar_value|apply ers_swar_name].
Qed.
Lemma env_avx2_ers W : env_ers (CB.env_avx2 W) (B.env_avx2 W).
Proof.
  apply env_mk_ers; intros f; [apply ers_simd_loop, ers_swar_uri|apply ers_simd_loop, ers_swar_value|apply ers_swar_name].
Qed.
Lemma env_neon_ers W : env_ers (CB.env_neon W) (B.env_neon W).
Proof.
  apply env_mk_ers; intros f; apply ers_simd_loop; [apply ers_swar_uri|apply ers_swar_value|apply ers_swar_name].
Qed.
Lemma env_runtime_ers W id : env_ers (CB.env_runtime W id) (B.env_runtime W id).
Proof.
  unfold CB.env_runtime, B.env_runtime. destruct (N.eqb id RT_AVX2); [apply env_avx2_ers|].
  destruct (N.eqb id RT_SSE42); [apply env_sse42_ers|apply env_swar_ers].
Qed.

Definition be_er (b : CB.backend) : B.backend :=
  match b with CB.BSwar => B.BSwar | CB.BSse42 => B.BSse42 | CB.BAvx2 => B.BAvx2 | CB.BNeon => B.BNeon
             | CB.BRuntime id => B.BRuntime id end.
Theorem env_of_ers : forall W b, env_ers (CB.env_of W b) (B.env_of W (be_er b)).
Proof.
  intros W [| | | |id]; cbn [CB.env_of B.env_of be_er];
    [apply env_swar_ers|apply env_sse42_ers|apply env_avx2_ers|apply env_neon_ers|apply env_runtime_ers].
Qed.

Module CT := HV.CostTop.
Module A := HV.Api.

Lemma ers_tick_then {A} n (mc : C.P A) (m : P.P A) : ers mc m -> ers (C.bind (C.tick n) (fun _ => mc)) m.
Proof.
  intros H [p t r tk tr]. unfold C.bind, C.tick. cbn [C.pre C.tokrev C.rest C.ticks C.travel].
  exact (H (C.mkcur p t r (n + tk) tr)).
Qed.

Section Top.
Variable CE : CS.env.
Variable E : S.env.
Hypothesis HE : env_ers CE E.
Variable fuel : nat.

(* the same programs over the plain cursor: what CostTop.v computes once the counters are forgotten *)
Fixpoint headers_plain (f : nat) (hc : M.hcfg) (cap nh : nat) : P.P nat :=
  match f with
  | O => P.fault_ P.OutOfFuel
  | S f' =>
      P.bind (M.header_line E fuel hc (Nat.eqb nh 0)) (fun h =>
      match h with
      | M.HEnd => P.ret nh
      | M.HContinue => headers_plain f' hc cap nh
      | M.HHeader name value =>
          if Nat.ltb nh cap then headers_plain f' hc cap (S nh) else P.fail P.TooManyHeaders
      end)
  end.
Definition opt_spaces_plain (ms : bool) : P.P unit := if ms then M.skip_spaces fuel else P.ret tt.
Definition request_plain (ms : bool) (hc : M.hcfg) (cap : nat) : P.P nat :=
  P.bind (M.skip_empty_lines fuel) (fun _ => P.bind (M.parse_method E fuel) (fun _ =>
  P.bind (opt_spaces_plain ms) (fun _ => P.bind (M.parse_uri E fuel) (fun _ =>
  P.bind (opt_spaces_plain ms) (fun _ => P.bind M.parse_version (fun _ =>
  P.bind P.newline (fun _ => headers_plain fuel hc cap 0))))))).
Definition response_plain (ms : bool) (hc : M.hcfg) (cap : nat) : P.P nat :=
  P.bind (M.skip_empty_lines fuel) (fun _ => P.bind M.parse_version (fun _ =>
  P.bind (P.space P.Version) (fun _ => P.bind (opt_spaces_plain ms) (fun _ => P.bind M.parse_code (fun _ =>
  P.bind (A.after_code ms fuel) (fun _ => headers_plain fuel hc cap 0)))))).

Lemma ers_headers_prog f : forall chc cap nh,
  ers (CT.headers_prog CE fuel f chc cap nh) (headers_plain f (hc_er chc) cap nh).
Proof.
  induction f as [|f IH]; intros chc cap nh; cbn [CT.headers_prog headers_plain]; ego.
  (* the charge for the trim has no counterpart *)
  apply ers_tick_then, IH.
Qed.

Lemma ers_opt_spaces ms : ers (CT.opt_spaces fuel ms) (opt_spaces_plain ms).
Proof. unfold CT.opt_spaces, opt_spaces_plain. ego. Qed.

Lemma ers_after_code ms : ers (CT.after_code fuel ms) (A.after_code ms fuel).
Proof. pose proof ers_opt_spaces. unfold CT.after_code, A.after_code. ego. Qed.

Lemma ers_request_prog ms chc cap :
  ers (CT.request_prog CE fuel ms chc cap) (request_plain ms (hc_er chc) cap).
Proof. pose proof ers_opt_spaces. pose proof ers_headers_prog. unfold CT.request_prog, request_plain. ego. Qed.

Lemma ers_response_prog ms chc cap :
  ers (CT.response_prog CE fuel ms chc cap) (response_plain ms (hc_er chc) cap).
Proof.
  pose proof ers_opt_spaces. pose proof ers_after_code. pose proof ers_headers_prog.
  unfold CT.response_prog, response_plain. ego.
Qed.
End Top.

Lemma ers_chunk_loop dbg : forall f size ics iext count,
  ers (CM.chunk_loop dbg f size ics iext count) (M.chunk_loop dbg f size ics iext count).
Proof. induction f as [|f IH]; intros size ics iext count; cbn [CM.chunk_loop M.chunk_loop]; ego. Qed.

Definition agree_st (o : P.out nat) (st : M.status) : Prop :=
  match o, st with
  | P.Done _ _, M.Complete _ => True
  | P.Part, M.Partial => True
  | P.Fail e, M.Error e' => e = e'
  | P.Fault x, M.Faulted x' => x = x'
  | _, _ => False
  end.

Lemma ws_some : forall (a : list M.slot) i s, i < length a -> exists a', M.write_slot i s a = Some a' /\ length a' = length a.
Proof.
  induction a as [|x a IH]; intros i s H; cbn [length] in H; [lia|].
  destruct i as [|i]; cbn [M.write_slot]; [eexists; split; reflexivity|].
  destruct (IH i s ltac:(lia)) as (a' & Ha & Hl). rewrite Ha. eexists; split; [reflexivity|cbn [length]; lia].
Qed.
Lemma ws_none : forall (a : list M.slot) i s, length a <= i -> M.write_slot i s a = None.
Proof.
  induction a as [|x a IH]; intros i s H; cbn [length] in H; [destruct i; reflexivity|].
  destruct i as [|i]; [lia|]. cbn [M.write_slot]. rewrite IH by lia. reflexivity.
Qed.

Lemma headers_plain_agree E fuel hc : forall f start nh arr c,
  agree_st (headers_plain E fuel f hc (length arr) nh c) (fst (fst (M.headers_loop E fuel hc f start nh arr c))).
Proof.
  induction f as [|f IH]; intros start nh arr c; cbn [headers_plain M.headers_loop]; [reflexivity|].
  unfold P.bind, M.stage. destruct (M.header_line E fuel hc (Nat.eqb nh 0) c) as [h c'| |e|x]; cbn [fst snd agree_st]; auto.
  destruct h as [| |name value]; cbn [fst snd agree_st]; [exact Logic.I|apply IH|].
  destruct (Nat.ltb_spec nh (length arr)) as [Hlt|Hge].
  - destruct (ws_some arr nh (M.SWritten name (M.trim_value value)) Hlt) as (arr' & Hw & Hl). rewrite Hw.
    rewrite <- Hl. apply IH.
  - rewrite ws_none by exact Hge. reflexivity.
Qed.

(* what the callers of the header loop do with its result keeps the status, up to the length in Complete *)
Lemma agree_tail {R} o (r : M.status * nat * list M.slot) (F : nat -> nat) (X : nat -> list M.slot -> R) (Y : R) :
  agree_st o (fst (fst r)) ->
  agree_st o (fst (fst (match r with
                        | (M.Complete n, nh, a') => (M.Complete (F n), X nh a', a')
                        | (st, _, a') => (st, Y, a')
                        end))).
Proof. destruct r as [[[n| |e|x] nh] a']; exact (fun H => H). Qed.

(* case on the outcome of the next stage, which both sides run from the same cursor *)
Ltac step1 :=
  match goal with
  | |- context [match ?m ?c with P.Done _ _ => _ | P.Part => _ | P.Fail _ => _ | P.Fault _ => _ end] =>
      destruct (m c) as [? ?| |?|?]; cbn [fst snd agree_st]; auto
  end.

Lemma request_plain_agree E cf buf rq arr :
  agree_st (request_plain E (S (length buf)) (A.allow_multiple_spaces_in_request_line_delimiters cf) (A.request_hcfg cf) (length arr)
                          (P.cur_new buf))
           (fst (fst (A.request_core E cf buf rq arr))).
Proof.
  unfold A.request_core, request_plain, opt_spaces_plain, M.stage, M.parse_headers_iter_uninit, P.bind.
  (* empty lines, method, spaces, uri, spaces, version, line end: the seven binds of `request_plain` *)
  do 7 step1. apply agree_tail, headers_plain_agree.
Qed.

Lemma response_plain_agree E cf buf rp arr :
  agree_st (response_plain E (S (length buf)) (A.allow_multiple_spaces_in_response_status_delimiters cf) (A.response_hcfg cf) (length arr)
                           (P.cur_new buf))
           (fst (fst (A.response_core E cf buf rp arr))).
Proof.
  unfold A.response_core, response_plain, opt_spaces_plain, M.stage, M.parse_headers_iter_uninit, P.bind.
  (* empty lines, version, space, spaces, code, `after_code`: the six binds of `response_plain` *)
  do 6 step1. apply agree_tail, headers_plain_agree.
Qed.

Lemma headers_only_agree E src dst :
  agree_st (headers_plain E (S (length src)) (S (length src)) M.hcfg_default (length dst) 0 (P.cur_new src))
           (fst (fst (A.parse_headers E src dst))).
Proof. unfold A.parse_headers, M.parse_headers_iter_uninit. apply agree_tail, headers_plain_agree. Qed.
