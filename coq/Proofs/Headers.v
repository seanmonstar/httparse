(* Proofs/Headers.v -- the header machine of the model (Model.header_line and its loops)
   agrees with the line-level reference (Spec.ref_header_line), for all four header options
   and every environment satisfying EnvOk. *)
From Coq Require Import List NArith ZArith Lia Bool ZifyBool ZifyN ZifyNat.
From HV Require Import Cursor Scan Model Spec.
From HV.Proofs Require Import Base RefInd EnvOk StartLine.
Import ListNotations.

Definition in_fuel (f : nat) (l : list N) : Prop := bytes_ok l /\ length l < f.

Lemma in_fuel_skipn f k l : in_fuel f l -> in_fuel f (skipn k l).
Proof. intros [Hb Hl]. split; [apply bytes_ok_skipn; exact Hb|rewrite skipn_length; lia]. Qed.
Lemma in_fuel_app f a l : in_fuel f (a ++ l) -> in_fuel f l.
Proof. intros H. apply (in_fuel_skipn f (length a)) in H. rewrite skipn_app, skipn_all, Nat.sub_diag in H. exact H. Qed.

Lemma is_58 b : is 58 b = true -> ws b = false /\ tchar b = false.
Proof. intros H. apply is_eq in H. subst. repeat split. Qed.

Lemma value_char_not_trim b : value_char b = true -> ws b = false -> is_trim b = false.
Proof.
  intros Hv Hw. unfold is_trim, SP, HT, CR, LF. change (is 32 b || is 9 b) with (ws b). rewrite Hw.
  destruct (is 13 b) eqn:E13; [apply is_eq in E13; subst; discriminate|].
  destruct (is 10 b) eqn:E10; [apply is_eq in E10; subst; discriminate|reflexivity].
Qed.

Section WithEnv.
Variable E : env.
Hypothesis HE : env_ok E.
Variable fuel : nat.
Variable hc : hcfg.

(* handle_invalid_char!: the offending byte b has been read already: the cursor stands just past
   it, wherever its `start` is; only the absolute position matters *)
Lemma skip_invalid_line_agree : forall f r b t p e off,
  length r < f -> length t + p = S off ->
  sim (committed (fun (_ : unit) y => y = LSkip))
    ((skip_invalid_line f b e ;;; slice ;;; ret tt) (mkcur p t r))
    (ref_invalid true e off (b :: r)).
Proof.
  induction f as [|f IH]; intros r b t p e off Hl Hoff; [lia|].
  cbn [skip_invalid_line]. unfold CR, LF.
  destruct (junk_byte b) eqn:Ej.
  - rewrite ref_invalid_junk by exact Ej.
    apply negb_true_iff in Ej. apply orb_false_elim in Ej as [Ej ->]. apply orb_false_elim in Ej as [-> ->].
    destruct r as [|b' r']; [reflexivity|]. rewrite bind_assoc, next_cons.
    apply IH; [exact (proj2 (Nat.succ_lt_mono _ _) Hl)|exact (f_equal S Hoff)].
  - rewrite ref_invalid_stop by exact Ej. unfold on_eol, eol_at.
    unfold junk_byte in Ej. destruct (is 13 b).
    + destruct r as [|b2 r2]; [reflexivity|]. rewrite bind_assoc, expect_cons.
      destruct (is 10 b2); [|reflexivity]. apply sim_committed; [reflexivity|exact (f_equal S Hoff)].
    + destruct (is 10 b).
      * apply sim_committed; [reflexivity|exact Hoff].
      * apply negb_false_iff in Ej. cbn [orb] in Ej. rewrite Ej. reflexivity.
Qed.

Lemma handle_invalid_agree : forall r b t p e off,
  length r < fuel -> length t + p = S off ->
  sim (committed (fun (_ : unit) y => y = LSkip))
    (handle_invalid fuel hc b e (mkcur p t r))
    (ref_invalid (ignore_invalid_headers hc) e off (b :: r)).
Proof.
  intros r b t p e off Hl Hoff. unfold handle_invalid.
  destruct (ignore_invalid_headers hc); [|reflexivity].
  apply skip_invalid_line_agree; assumption.
Qed.

(* Line end, then the folding test.  'value_lines and 'whitespace_after_colon share this shape once
   a byte that is no value byte has been read: `more` goes on with the value on the next line,
   `stop n` ends it after a line end of n bytes, `bad` is for any other byte. *)
Definition at_eol {A} (more : P A) (stop : nat -> P A) (bad : N -> P A) : P A :=
  b <- next ;;
  if is CR b then expect (is LF) HeaderValue ;;; c <- fold_check hc ;; if c then more else stop 2
  else if is LF b then c <- fold_check hc ;; if c then more else stop 1
  else bad b.

Lemma fold_check_no c : vstop hc (rest c) -> fold_check hc c = Done false c.
Proof.
  unfold fold_check. intros [->|(b & r & Hr & Hw)]; [reflexivity|].
  destruct (allow_obsolete_multiline_headers hc); [|reflexivity].
  rewrite peek_eq, Hr. cbn [hd_error]. change (is_ws b) with (ws b). rewrite Hw. reflexivity.
Qed.
Lemma fold_check_yes c b r :
  allow_obsolete_multiline_headers hc = true -> rest c = b :: r -> ws b = true -> fold_check hc c = Done true c.
Proof.
  unfold fold_check. intros -> Hr Hw.
  rewrite peek_eq, Hr. cbn [hd_error]. change (is_ws b) with (ws b). rewrite Hw. reflexivity.
Qed.

Section AtEol.
Context {A : Type} (more : P A) (stop : nat -> P A) (bad : N -> P A) (p : nat) (t : list N).

Lemma at_eol_read e r : is_eol e ->
  at_eol more stop bad (mkcur p t (e ++ r)) =
  (c <- fold_check hc ;; if c then more else stop (length e)) (mkcur p (rev e ++ t) r).
Proof. intros [->| ->]; reflexivity. Qed.

Lemma at_eol_part l : vpart hc l -> at_eol more stop bad (mkcur p t l) = Part.
Proof. intros [->|[->|[Hf [->| ->]]]]; unfold at_eol, fold_check; rewrite ?Hf; reflexivity. Qed.
Lemma at_eol_err b2 r2 : is 10 b2 = false -> at_eol more stop bad (mkcur p t (13%N :: b2 :: r2)) = Fail HeaderValue.
Proof.
  intros H. unfold at_eol, LF. rewrite next_cons. change (is CR 13) with true. cbn iota.
  rewrite expect_cons, H. reflexivity.
Qed.
Lemma at_eol_stop e r : is_eol e -> vstop hc r ->
  at_eol more stop bad (mkcur p t (e ++ r)) = stop (length e) (mkcur p (rev e ++ t) r).
Proof. intros He Hst. rewrite at_eol_read by exact He. unfold bind. rewrite fold_check_no by exact Hst. reflexivity. Qed.
Lemma at_eol_fold e b r : is_eol e -> allow_obsolete_multiline_headers hc = true -> ws b = true ->
  at_eol more stop bad (mkcur p t (e ++ b :: r)) = more (mkcur p (rev e ++ t) (b :: r)).
Proof.
  intros He Hf Hw. rewrite at_eol_read by exact He. unfold bind.
  rewrite (fold_check_yes (mkcur p (rev e ++ t) (b :: r)) b r Hf eq_refl Hw). reflexivity.
Qed.
Lemma at_eol_bad b r : is 13 b = false -> is 10 b = false ->
  at_eol more stop bad (mkcur p t (b :: r)) = bad b (mkcur p (b :: t) r).
Proof. intros H13 H10. unfold at_eol, CR, LF. rewrite next_cons, H13, H10. reflexivity. Qed.
End AtEol.

(* a dropped line is flagged by the reference with the impossible slice Ext [255]; a value is
   always a sub-slice of the buffer and is reported trimmed *)
Definition vrel (v : vres) (s : sl) : Prop :=
  match v with
  | VDropped => s = Ext [255%N]
  | VValue v0 => s = trim_value v0 /\ dropped s = false
  end.

Lemma dropped_value_agree r b t p off : length r < fuel -> length t + p = S off ->
  sim (committed vrel) ((handle_invalid fuel hc b HeaderValue ;;; ret VDropped) (mkcur p t r))
      (vinvalid hc off (b :: r)).
Proof.
  intros Hl Ho. apply (sim_bind (handle_invalid_agree r b t p HeaderValue off Hl Ho)).
  intros _ c' _ [_ Ht]. apply sim_done; [split; [reflexivity|exact Ht]|reflexivity|reflexivity].
Qed.

Lemma ref_value_lines_skip : forall l voff racc off,
  ref_value_lines hc voff racc off l =
  ref_value_lines hc voff (rev (firstn (first_bad value_char l) l) ++ racc)
                  (first_bad value_char l + off) (skipn (first_bad value_char l) l).
Proof.
  induction l as [|b r IH]; intros voff racc off; [reflexivity|].
  cbn [first_bad]. destruct (value_char b) eqn:Ev; [|reflexivity].
  cbn [ref_value_lines firstn skipn rev]. rewrite Ev, IH, <- app_assoc, Nat.add_succ_r. reflexivity.
Qed.

Lemma drop_while_app_ne p a b : drop_while p b <> [] -> drop_while p (a ++ b) <> [].
Proof.
  induction a as [|x a IH]; intros H; [exact H|]. cbn [app drop_while].
  destruct (p x); [apply IH; exact H|discriminate].
Qed.

Lemma vrel_trim voff racc :
  drop_while is_trim racc <> [] -> vrel (VValue (Sub voff (rev' racc))) (vtrim voff racc).
Proof.
  intros H. split; [|reflexivity]. unfold trim_value, vtrim.
  rewrite (rev'_rev (rev' racc)), (rev'_rev racc), rev_involutive.
  destruct (drop_while is_trim racc); [congruence|reflexivity].
Qed.

Lemma value_lines_agree : forall f l racc voff,
  length l < f -> in_fuel fuel l -> drop_while is_trim racc <> [] ->
  sim (committed vrel) (value_lines E fuel hc f (mkcur voff racc l))
             (ref_value_lines hc voff racc (length racc + voff) l).
Proof.
  induction f as [|f IH]; intros l racc voff Hl [Hb Hfu] Hne; [lia|].
  (* the second half of a turn: the cursor is at a byte that is no value byte *)
  assert (Hturn : forall l racc, (forall b r, l = b :: r -> value_char b = false) ->
            length l < S f -> in_fuel fuel l -> drop_while is_trim racc <> [] ->
            sim (committed vrel)
              (at_eol (value_lines E fuel hc f) (fun n => v <- slice_skip n ;; ret (VValue v))
                      (fun b => handle_invalid fuel hc b HeaderValue ;;; ret VDropped) (mkcur voff racc l))
              (ref_value_lines hc voff racc (length racc + voff) l)).
  { clear l racc Hl Hb Hfu Hne. intros l racc Hhd Hl Hg Hne.
    destruct (vhead_of hc l) as [l Hp|b2 r2 H10|b r Ev|e r He Hst|e b r He Hfo Hw|b r Ev H13 H10].
    - rewrite at_eol_part, rvl_part by exact Hp. reflexivity.
    - rewrite at_eol_err, rvl_err by exact H10. reflexivity.
    - rewrite (Hhd b r eq_refl) in Ev. discriminate.
    - rewrite at_eol_stop, rvl_stop by assumption.
      destruct He as [->| ->]; (apply sim_committed; [apply vrel_trim; exact Hne|reflexivity]).
    - rewrite at_eol_fold, rvl_fold by assumption. apply in_fuel_app in Hg.
      destruct He as [->| ->]; cbn [rev app length Nat.add];
        (apply IH; [cbn [app length] in Hl |- *; clear -Hl; lia|exact Hg|exact Hne]).
    - rewrite at_eol_bad, rvl_bad by assumption.
      apply dropped_value_agree; [exact (Nat.lt_succ_l _ _ (proj2 Hg))|reflexivity]. }
  (* the first half: the scanner stops at the first such byte, k bytes on *)
  cbn [value_lines]. rewrite (scan_eq _ _ _ _ (mkcur voff racc l) (ok_s_value E HE) Hb Hfu), ref_value_lines_skip.
  unfold adv. cbn [pre tokrev rest].
  set (k := first_bad value_char l). set (racc' := rev (firstn k l) ++ racc).
  replace (k + (length racc + voff)) with (length racc' + voff)
    by (unfold racc'; rewrite app_length, rev_length, firstn_length_le by apply first_bad_le; symmetry; apply Nat.add_assoc).
  apply (Hturn (skipn k l) racc').
  - intros b r Hk. pose proof (span_stop value_char l b r) as Hhd. rewrite span_first_bad in Hhd. exact (Hhd Hk).
  - rewrite skipn_length. lia.
  - apply in_fuel_skipn. split; assumption.
  - apply drop_while_app_ne. exact Hne.
Qed.

(* the token is empty, or about to be emptied because the next byte is whitespace *)
Lemma ws_after_colon_agree : forall f l t p,
  length l < f -> in_fuel fuel l ->
  (t = [] \/ exists b r, l = b :: r /\ ws b = true) ->
  sim (committed vrel) (ws_after_colon E fuel hc f (mkcur p t l))
             (ref_value_start hc (length t + p) l).
Proof.
  induction f as [|f IH]; intros l t p Hl Hg Ht; [lia|].
  (* the cursor is at a byte that is no value byte and no whitespace, the token is empty *)
  assert (Hturn : forall l p, (forall b r, l = b :: r -> value_char b = false) ->
            length l < S f -> in_fuel fuel l ->
            sim (committed vrel)
              (at_eol (ws_after_colon E fuel hc f) (fun _ c0 => Done (VValue (Sub (pre c0) [])) (commit c0))
                      (fun b => handle_invalid fuel hc b HeaderValue ;;; ret VDropped) (mkcur p [] l))
              (ref_value_start hc p l)).
  { clear l t p Hl Hg Ht. intros l p Hhd Hl Hg.
    destruct (vhead_of hc l) as [l Hp|b2 r2 H10|b r Ev|e r He Hst|e b r He Hfo Hw|b r Ev H13 H10].
    - rewrite at_eol_part, rvs_part by exact Hp. reflexivity.
    - rewrite at_eol_err, rvs_err by exact H10. reflexivity.
    - rewrite (Hhd b r eq_refl) in Ev. discriminate.
    - rewrite at_eol_stop, rvs_stop by assumption.
      destruct He as [->| ->]; (apply sim_committed; [split; reflexivity|reflexivity]).
    - rewrite at_eol_fold, rvs_fold by assumption. apply in_fuel_app in Hg.
      destruct He as [->| ->]; cbn [rev app length Nat.add];
        (apply IH; [cbn [app length] in Hl |- *; clear -Hl; lia|exact Hg|right; eauto]).
    - rewrite at_eol_bad, rvs_bad by assumption.
      apply dropped_value_agree; [exact (Nat.lt_succ_l _ _ (proj2 Hg))|reflexivity]. }
  destruct l as [|b r]; [reflexivity|].
  assert (Hg' : in_fuel fuel r) by exact (in_fuel_skipn fuel 1 (b :: r) Hg).
  assert (Hl' : length r < f) by exact (proj2 (Nat.succ_lt_mono _ _) Hl).
  assert (Hb0 : (b < 256)%N) by (apply (bytes_ok_cons b r), Hg).
  cbn [ws_after_colon]. rewrite next_cons. change (is_ws b) with (ws b). rewrite (ok_value E HE b Hb0).
  destruct (ws b) eqn:Ews.
  { cbn [ref_value_start]. rewrite Ews, slice_eq.
    exact (IH r [] (S (length t + p)) Hl' Hg' (or_introl eq_refl)). }
  assert (t = []) as -> by (destruct Ht as [->|(b' & r' & [= <- <-] & Hw)]; [reflexivity|congruence]).
  destruct (value_char b) eqn:Ev.
  { rewrite rvs_value by assumption. cbn [ref_value_lines]. rewrite Ev.
    apply (value_lines_agree fuel r [b] p (proj2 Hg') Hg'). cbn [drop_while].
    rewrite (value_char_not_trim b Ev Ews). discriminate. }
  apply (Hturn (b :: r) p); [intros b' r' [= <- <-]; exact Ev|exact Hl|exact Hg].
Qed.

Lemma skip_ws_peek_spec : forall f l t p,
  length l < f ->
  skip_ws_peek f (mkcur p t l) =
  let (w, r) := span ws l in Done tt (mkcur p (rev w ++ t) r).
Proof.
  induction f as [|f IH]; intros l t p Hl; [lia|].
  destruct l as [|b r]; [reflexivity|].
  cbn [skip_ws_peek span]. rewrite peek_eq. cbn [rest hd_error].
  change (is_ws b) with (ws b). destruct (ws b); [|reflexivity].
  rewrite next_cons, IH by exact (proj2 (Nat.succ_lt_mono _ _) Hl).
  destruct (span ws r) as [w r']. cbn [rev]. rewrite <- app_assoc. reflexivity.
Qed.

Lemma after_name_ws_spec : forall f r b t p,
  length r < f -> ws b = true ->
  after_name_ws f b (mkcur p t r) =
  let (w, r3) := span ws r in
  match r3 with
  | [] => Part
  | c' :: r4 =>
      if is 58 c' then Done None (mkcur (S (length w) + (length t + p)) [] r4)
      else Done (Some c') (mkcur p (c' :: rev w ++ t) r4)
  end.
Proof.
  induction f as [|f IH]; intros r b t p Hl Hw; [lia|].
  cbn [after_name_ws]. change (is_ws b) with (ws b). rewrite Hw.
  destruct r as [|b' r']; [reflexivity|]. apply Nat.succ_lt_mono in Hl.
  rewrite next_cons. cbn [span]. unfold COLON.
  destruct (ws b') eqn:Ew'.
  - destruct (is 58 b') eqn:E58; [rewrite (proj1 (is_58 b' E58)) in Ew'; discriminate|].
    rewrite IH by assumption.
    destruct (span ws r') as [w r3]. destruct r3 as [|c' r4]; [reflexivity|].
    cbn [length rev Nat.add]. rewrite <- app_assoc, Nat.add_succ_r. reflexivity.
  - destruct (is 58 b'); [reflexivity|].
    destruct f as [|f']; [inversion Hl|].
    cbn [after_name_ws]. change (is_ws b') with (ws b'). rewrite Ew'. reflexivity.
Qed.

Lemma after_name_ws_stop f b c : 0 < f -> ws b = false -> after_name_ws f b c = Done (Some b) c.
Proof.
  intros Hf Hw. destruct f as [|f]; [inversion Hf|].
  cbn [after_name_ws]. change (is_ws b) with (ws b). rewrite Hw. reflexivity.
Qed.

Definition hrel (h : hstep) (l : rline) : Prop :=
  match h with
  | HEnd => l = LEnd
  | HContinue => l = LSkip
  | HHeader n v => l = LHeader n (trim_value v)
  end.
(* after an empty line the token (the line end itself) is left uncommitted *)
Definition line_rel (h : hstep) (c : cur) (l : rline) : Prop := hrel h l /\ (l <> LEnd -> tokrev c = []).

Lemma value_to_line name (m : P vres) c r :
  sim (committed vrel) (m c) r ->
  sim line_rel
    ((v <- m ;; match v with VDropped => ret HContinue | VValue v => ret (HHeader name v) end) c)
    (rbind r (fun v o l => ROk (if dropped v then LSkip else LHeader name v) o l)).
Proof.
  intros H. apply (sim_bind H). intros v c' s [Hv Ht].
  destruct v as [|v0]; cbn [vrel] in Hv;
    (apply sim_done; [split; [|intros _; exact Ht]|reflexivity|reflexivity]).
  - subst s. reflexivity.
  - destruct Hv as [-> Hd]. rewrite Hd. reflexivity.
Qed.

Lemma invalid_line_agree r b t p off : length r < fuel -> length t + p = S off ->
  sim line_rel ((handle_invalid fuel hc b HeaderName ;;; ret HContinue) (mkcur p t r))
      (ref_invalid (ignore_invalid_headers hc) HeaderName off (b :: r)).
Proof.
  intros Hl Ho. apply (sim_map _ _ _ (fun _ => HContinue) _ _ (handle_invalid_agree r b t p HeaderName off Hl Ho)).
  intros _ c' y [-> Ht]. split; [reflexivity|intros _; exact Ht].
Qed.

(* What follows the name, the model's two routes to the colon told as the reference tells them: with
   the option, whitespace w; then the colon, or a byte c' that spoils the line and has been read. *)
Lemma colon_spec c r2 p : length r2 < fuel ->
  let m := (if is COLON c then ret None
            else if allow_spaces_after_header_name hc then after_name_ws fuel c else ret (Some c))
           (mkcur p [] r2) in
  let (w, r3) := if allow_spaces_after_header_name hc then span ws (c :: r2) else ([], c :: r2) in
  match r3 with
  | [] => m = Part
  | c' :: r4 =>
      if is 58 c' then m = Done None (mkcur (length w + p) [] r4)
      else exists t, m = Done (Some c') (mkcur p t r4) /\ length t = length w
  end.
Proof.
  intros Hl. cbn zeta. unfold COLON. destruct (is 58 c) eqn:E58.
  { destruct (allow_spaces_after_header_name hc); cbn [span];
      rewrite ?(proj1 (is_58 c E58)), E58; reflexivity. }
  destruct (allow_spaces_after_header_name hc); [|rewrite E58; exists []; split; reflexivity].
  cbn [span]. destruct (ws c) eqn:Ew.
  - rewrite after_name_ws_spec by assumption.
    destruct (span ws r2) as [w' [|c' r4]]; [reflexivity|]. destruct (is 58 c'); [reflexivity|].
    eexists. split; [reflexivity|]. cbn [length]. rewrite app_nil_r, rev_length. reflexivity.
  - rewrite (after_name_ws_stop fuel c _ (Nat.le_lt_trans _ _ _ (Nat.le_0_l _) Hl) Ew), E58. exists []. split; reflexivity.
Qed.

Lemma header_line_agree : forall first l p,
  length l < fuel -> bytes_ok l ->
  sim line_rel (header_line E fuel hc first (mkcur p [] l)) (ref_header_line hc first p l).
Proof.
  intros first l p Hfu Hb. rewrite ref_header_line_eq. unfold on_eol, eol_at.
  destruct l as [|b r]; [reflexivity|].
  apply bytes_ok_cons in Hb as [Hb0 Hbr]. apply Nat.lt_succ_l in Hfu.
  unfold header_line. rewrite next_cons, (ok_name E HE b Hb0). unfold CR, LF.
  destruct (is 13 b).
  { destruct r as [|b2 r2]; [reflexivity|]. rewrite expect_cons.
    destruct (is 10 b2); [|reflexivity].
    apply sim_done; [split; [reflexivity|congruence]|reflexivity|reflexivity]. }
  destruct (is 10 b).
  { apply sim_done; [split; [reflexivity|congruence]|reflexivity|reflexivity]. }
  change (is_ws b) with (ws b).
  destruct (tchar b) eqn:Et; cbn [negb].
  2:{ (* not a name byte *)
      destruct (allow_space_before_first_header_name hc && first && ws b) eqn:Esp.
      - unfold bind at 1. rewrite skip_ws_peek_spec by exact Hfu.
        apply andb_prop in Esp as [_ Ews]. cbn [span]. rewrite Ews.
        destruct (span ws r) as [w r']. rewrite slice_eq.
        apply sim_done; [split; reflexivity| |reflexivity]. unfold apos, commit. cbn [tokrev pre length].
        rewrite app_length, rev_length. cbn [length]. rewrite Nat.add_1_r. reflexivity.
      - apply invalid_line_agree; [exact Hfu|reflexivity]. }
  (* a name: scan it, read the byte after it, slice *)
  rewrite (scan_eq _ _ _ _ (mkcur p [b] r) (ok_s_name E HE) Hbr Hfu). cbn [rest span]. rewrite Et, span_first_bad.
  set (k := first_bad tchar r). unfold adv. cbn [pre tokrev rest].
  pose proof (in_fuel_skipn fuel k r (conj Hbr Hfu)) as Hg.
  change (rev (firstn k r) ++ [b]) with (rev (b :: firstn k r)).
  (* of the name nothing more is needed, of the input after it only `Hg` *)
  set (name := b :: firstn k r). set (l := skipn k r) in *. clearbody name l.
  destruct l as [|c r2]; [destruct (allow_spaces_after_header_name hc); reflexivity|].
  rewrite next_cons, slice_skip_1, rev'_rev, rev_involutive. unfold commit. cbn [tokrev pre rest length].
  rewrite rev_length. set (o1 := length name + p). change (S (length name) + p) with (S o1).
  pose proof (colon_spec c r2 (S o1) (Nat.lt_succ_l _ _ (proj2 Hg))) as Hc. cbn zeta in Hc.
  destruct (if allow_spaces_after_header_name hc then span ws (c :: r2) else ([], c :: r2)) as [w r3] eqn:Ew.
  apply opt_span_eq in Ew as [Ew _]. rewrite Ew in Hg. apply in_fuel_app in Hg.
  destruct r3 as [|c' r4]; [unfold bind at 1; rewrite Hc; reflexivity|].
  pose proof (in_fuel_skipn fuel 1 (c' :: r4) Hg) as Hg4.
  destruct (is 58 c').
  - unfold bind at 1. rewrite Hc. apply value_to_line. rewrite <- Nat.add_succ_r.
    exact (ws_after_colon_agree fuel r4 [] (length w + S o1) (proj2 Hg4) Hg4 (or_introl eq_refl)).
  - destruct Hc as (t & Hc & Ht). unfold bind at 1. rewrite Hc.
    apply invalid_line_agree; [exact (proj2 Hg4)|].
    rewrite Ht. apply Nat.add_succ_r.
Qed.
End WithEnv.
