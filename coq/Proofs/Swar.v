(* Proofs/Swar.v -- the translated SWAR block kernels (Generated/Swar.v) return the
   index of the first byte outside their class, for every block of BLOCK_SIZE bytes
   and every BLOCK_SIZE. *)
From Coq Require Import List NArith Lia Bool.
From HV Require Import Scan Intrinsics.
From HV.Proofs Require Import Base.
From HV.Generated Require Import Swar.
Import ListNotations.
Local Open Scope N_scope.

(* words as numbers: these serve `w_sub_spec` alone, which says that Intrinsics.w_sub is subtraction
   modulo 2^(8k); the kernel lemmas below go byte by byte and do not call it *)
Fixpoint le_word (xs : list N) : N :=
  match xs with [] => 0 | x :: r => x + 256 * le_word r end.
Fixpoint borrow_out (bw : bool) (xs ys : list N) : bool :=
  match xs, ys with
  | x :: xr, y :: yr => borrow_out (x <? y + b2n bw) xr yr
  | _, _ => bw
  end.

Lemma w_sub_spec : forall xs ys bw,
  bytes_ok xs -> bytes_ok ys -> length xs = length ys ->
  le_word (w_sub_b bw xs ys) + le_word ys + b2n bw
  = le_word xs + 256 ^ N.of_nat (length xs) * b2n (borrow_out bw xs ys).
Proof.
  induction xs as [|x xr IH]; intros [|y yr] bw Hx Hy Hl; try discriminate.
  - cbn. destruct bw; cbn; lia.
  - inversion Hx as [|? ? Hx0 Hxr]; inversion Hy as [|? ? Hy0 Hyr]; subst.
    cbn [w_sub_b borrow_out le_word length]. injection Hl as Hl.
    specialize (IH yr (x <? y + b2n bw) Hxr Hyr Hl).
    rewrite Nat2N.inj_succ, N.pow_succ_r'.
    set (P := 256 ^ N.of_nat (length xr)) in *.
    set (bo := b2n (borrow_out (x <? y + b2n bw) xr yr)) in *.
    assert (Hb : b2n bw <= 1) by (destruct bw; cbn; lia).
    destruct (N.ltb_spec x (y + b2n bw)) as [Hlt|Hge]; cbn [b2n] in IH |- *.
    + assert ((x + 256 - (y + b2n bw)) mod 256 = x + 256 - (y + b2n bw)) by (apply N.mod_small; lia).
      nia.
    + assert ((x + 256 - (y + b2n bw)) mod 256 = x - (y + b2n bw)).
      { replace (x + 256 - (y + b2n bw)) with ((x - (y + b2n bw)) + 1 * 256) by lia.
        rewrite N.mod_add by lia. apply N.mod_small. lia. }
      nia.
Qed.

(* the shape shared by both kernels, generalised over the two incoming borrows:
     lt     = (x - uniform m) & !x
     eq_del = ((x ^ uniform 127) - uniform 1) & !(x ^ uniform 127)
     (lt | eq_del) & uniform 128                                               *)
Fixpoint res_gen (m : N) (b1 b2 : bool) (x : list N) : list N :=
  match x with
  | [] => []
  | a :: r =>
      let d := N.lxor a 127 in
      let lt := N.land ((a + 256 - (m + b2n b1)) mod 256) (255 - a) in
      let eq := N.land ((d + 256 - (1 + b2n b2)) mod 256) (255 - d) in
      N.land (N.lor lt eq) 128 :: res_gen m (a <? m + b2n b1) (d <? 1 + b2n b2) r
  end.

Lemma res_gen_eq : forall m x b1 b2 k, k = length x ->
  res_gen m b1 b2 x =
  w_and (w_or (w_and (w_sub_b b1 x (repeat m k)) (w_not x))
              (w_and (w_sub_b b2 (w_xor x (repeat 127 k)) (repeat 1 k)) (w_not (w_xor x (repeat 127 k)))))
        (repeat 128 k).
Proof.
  induction x as [|a r IH]; intros b1 b2 k ->; [reflexivity|].
  cbn [res_gen length repeat w_and w_or w_xor w_not w_sub_b map2 map].
  f_equal. apply IH. reflexivity.
Qed.

(* The class a SWAR kernel decides exactly: m..0x7E and 0x80..0xFF.  m = 33 is the target class; m = 32 is the
   value class without HTAB, at which the value kernel stops conservatively (the loop shell re-checks the byte). *)
Definition strict_class (m : N) (b : N) : bool :=
  ((m <=? b) && (b <=? 126)) || ((128 <=? b) && (b <=? 255)).

(* f holds of the n bytes from b on.  The 256-byte sweeps run through this and not through a list of the bytes,
   which lazy evaluation (coqchk has no VM) would pay for at every sweep. *)
Fixpoint holds_from (f : N -> bool) (b : N) (n : nat) : bool :=
  match n with O => true | S k => f b && holds_from f (N.succ b) k end.
Lemma holds_from_spec f n : forall b, holds_from f b n = true ->
  forall x, b <= x < b + N.of_nat n -> f x = true.
Proof.
  induction n as [|n IH]; intros b H x Hx; [lia|].
  cbn [holds_from] in H. apply andb_prop in H as [H0 H].
  destruct (N.eq_dec x b) as [->|Hne]; [exact H0|]. apply (IH (N.succ b) H). lia.
Qed.
Definition all_bytes (f : N -> bool) : bool := holds_from f 0 256.
Lemma all_bytes_spec f : all_bytes f = true -> forall b, b < 256 -> f b = true.
Proof. intros H b Hb. apply (holds_from_spec f 256 0 H). split; [apply N.le_0_l|exact Hb]. Qed.

(* per byte: in class  => no flag and both borrows stay clear;  out of class => flag set *)
Definition byte_fact (m : N) (a : N) : bool :=
  let d := N.lxor a 127 in
  let lt := N.land ((a + 256 - m) mod 256) (255 - a) in
  let eq := N.land ((d + 256 - 1) mod 256) (255 - d) in
  let flag := N.land (N.lor lt eq) 128 in
  if strict_class m a then (flag =? 0) && negb (a <? m) && negb (d <? 1)
  else negb (flag =? 0).
Lemma byte_facts_33 : all_bytes (byte_fact 33) = true.
Proof. vm_compute. reflexivity. Qed.
Lemma byte_facts_32 : all_bytes (byte_fact 32) = true.
Proof. vm_compute. reflexivity. Qed.

Lemma res_gen_first_bad : forall m x,
  all_bytes (byte_fact m) = true -> bytes_ok x ->
  first_nonzero (res_gen m false false x) = first_bad (strict_class m) x.
Proof.
  intros m x HF Hx.
  induction Hx as [|a r Ha Hr IH]; [reflexivity|].
  cbn [res_gen first_bad first_nonzero b2n].
  pose proof (all_bytes_spec _ HF a Ha) as F.
  unfold byte_fact in F. rewrite !N.add_0_r.
  destruct (strict_class m a).
  - apply andb_prop in F as [F F3]. apply andb_prop in F as [F1 F2].
    rewrite F1. apply negb_true_iff in F2, F3. rewrite F2, F3. f_equal. exact IH.
  - apply negb_true_iff in F. rewrite F. reflexivity.
Qed.

Lemma first_nonzero_all_zero : forall l,
  forallb (fun b => b =? 0) l = true -> first_nonzero l = length l.
Proof.
  induction l as [|b r IH]; cbn [forallb first_nonzero length]; [reflexivity|].
  intros H. apply andb_prop in H as [H1 H2]. rewrite H1. f_equal. auto.
Qed.
Lemma res_gen_length : forall m x b1 b2, length (res_gen m b1 b2 x) = length x.
Proof. induction x as [|a r IH]; intros; cbn [res_gen length]; [reflexivity|f_equal; apply IH]. Qed.

Lemma offsetnz_first_nonzero : forall W l, length l = W -> offsetnz W l = first_nonzero l.
Proof.
  intros W l HW. unfold offsetnz.
  destruct (forallb (fun b => b =? 0) l) eqn:E; [|reflexivity].
  rewrite first_nonzero_all_zero by exact E. symmetry. exact HW.
Qed.

(* the two translated kernels are this term at m = 33 and m = 32 *)
Lemma swar_kernel_exact m W x :
  all_bytes (byte_fact m) = true -> length x = W -> bytes_ok x ->
  let lt := w_and (w_sub x (uniform_block W m)) (w_not x) in
  let xor_del := w_xor x (uniform_block W 127) in
  let eq_del := w_and (w_sub xor_del (uniform_block W 1)) (w_not xor_del) in
  offsetnz W (w_and (w_or lt eq_del) (uniform_block W 128)) = first_bad (strict_class m) x.
Proof.
  intros HF HW Hb. unfold uniform_block, w_sub. cbv zeta.
  rewrite <- (res_gen_eq m x false false W) by (symmetry; exact HW).
  rewrite offsetnz_first_nonzero by (rewrite res_gen_length; exact HW).
  apply res_gen_first_bad; [exact HF|exact Hb].
Qed.

Theorem swar_uri_kernel_exact : forall W block,
  length block = W -> bytes_ok block ->
  match_uri_char_8_swar W block = first_bad (strict_class 33) block.
Proof. intros W block. exact (swar_kernel_exact 33 W block byte_facts_33). Qed.

Theorem swar_value_kernel_exact : forall W block,
  length block = W -> bytes_ok block ->
  match_header_value_char_8_swar W block = first_bad (strict_class 32) block.
Proof. intros W block. exact (swar_kernel_exact 32 W block byte_facts_32). Qed.
