(* TieSwarFns.v -- the three first-index helpers of /repo/src/simd/swar.rs as translated on this run
   (Generated/SwarFns.v: match_tail, match_block, offsetnz; statement by statement, `for` loop included) are the
   functions every call of them is read as: Scan.first_bad for the two naive matchers, Intrinsics.offsetnz for
   the word scan -- and none of them reaches its `unreachable!()`. *)
From Coq Require Import List NArith Bool Lia Arith.
From HV Require Import Intrinsics Scan.
From HV.Generated Require Import SwarFns.
From HV.Proofs Require Base.
Import ListNotations.

Lemma for_enum_first : forall (p : N -> bool) (body : nat -> N -> option nat),
  (forall i b, body i b = if p b then None else Some i) ->
  forall l k, for_enum body k l = if Nat.ltb (first_bad p l) (length l) then Some (k + first_bad p l) else None.
Proof.
  intros p body Hb. induction l as [|b r IH]; intros k; cbn [for_enum first_bad length]; [reflexivity|].
  rewrite Hb. destruct (p b).
  - rewrite IH. change (Nat.ltb (S (first_bad p r)) (S (length r))) with (Nat.ltb (first_bad p r) (length r)).
    destruct (Nat.ltb (first_bad p r) (length r)); [f_equal; lia|reflexivity].
  - cbn. f_equal. lia.
Qed.
Lemma first_bad_all : forall p l, forallb p l = true -> first_bad p l = length l.
Proof. intros p l. apply Base.first_bad_all. Qed.
Lemma first_bad_some : forall p l, forallb p l = false -> first_bad p l < length l.
Proof.
  (* at most the length (first_bad_le), and the length only when every byte passes *)
  intros p l H. pose proof (Base.first_bad_le p l) as Hle.
  destruct (Nat.eq_dec (first_bad p l) (length l)) as [Heq|Hne]; [|lia].
  apply Base.first_bad_all in Heq. congruence.
Qed.
Lemma first_nonzero_first_bad : forall l, first_nonzero l = first_bad (fun b => N.eqb b 0) l.
Proof. induction l as [|b r IH]; cbn [first_nonzero first_bad]; [reflexivity|]. rewrite IH. reflexivity. Qed.

(* `for (i, b) in l.iter().enumerate() { if !p(b) { return i } } l.len()` *)
Lemma for_enum_or_length (p : N -> bool) (body : nat -> N -> option nat) l :
  (forall i b, body i b = if p b then None else Some i) ->
  match for_enum body 0 l with Some r => Some r | None => Some (length l) end = Some (first_bad p l).
Proof.
  intros Hb. rewrite (for_enum_first p body Hb).
  destruct (Nat.ltb (first_bad p l) (length l)) eqn:E; [reflexivity|].
  apply Nat.ltb_ge in E. pose proof (Base.first_bad_le p l). f_equal. lia.
Qed.

(* match_tail(f, bytes) = the first index whose byte fails f, else bytes.len() *)
Theorem tie_match_tail : forall W f l, g_match_tail W f l = Some (first_bad f l).
Proof. intros W f l. apply for_enum_or_length. intros i b. destruct (f b); reflexivity. Qed.
(* match_block(f, block) over a BLOCK_SIZE-byte block *)
Theorem tie_match_block : forall W f l, length l = W -> g_match_block W f l = Some (first_bad f l).
Proof. intros W f l <-. apply for_enum_or_length. intros i b. destruct (f b); reflexivity. Qed.
(* offsetnz(word): BLOCK_SIZE for the zero word, else the index of its first non-zero byte; `unreachable!()` is
   never reached *)
Theorem tie_offsetnz : forall W l, g_offsetnz W l = Some (offsetnz W l).
Proof.
  intros W l. unfold g_offsetnz, offsetnz.
  destruct (forallb (fun x => N.eqb x 0) l) eqn:E; [reflexivity|].
  rewrite (for_enum_first (fun b => N.eqb b 0)) by (intros i b; destruct (N.eqb b 0); reflexivity).
  rewrite first_nonzero_first_bad.
  pose proof (first_bad_some _ _ E) as H. apply Nat.ltb_lt in H. rewrite H. reflexivity.
Qed.
