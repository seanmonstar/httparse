(* Proofs/Shift.v -- the reference header parser is position-independent: parsing at offset
   `off` gives the result of parsing at offset 0 with every offset shifted by `off`. *)
From Coq Require Import List NArith PeanoNat Lia Bool.
From HV Require Import Cursor Model Spec.
From HV.Proofs Require Import RefInd.
Import ListNotations.

Definition shl (k : nat) (s : sl) : sl := match s with Sub o b => Sub (k + o) b | Ext b => Ext b end.
Definition shline (k : nat) (x : rline) : rline :=
  match x with LHeader n v => LHeader (shl k n) (shl k v) | y => y end.
Definition shres {A} (g : A -> A) (k : nat) (r : rres A) : rres A :=
  match r with ROk a o l => ROk (g a) (k + o) l | RPart => RPart | RErr e => RErr e end.

Section Shift.
Variable hc : hcfg.

(* a dropped line yields LSkip only, so g may be the shift of a line or of nothing *)
Lemma ref_invalid_shift g ign e k off l : g LSkip = LSkip ->
  ref_invalid ign e (k + off) l = shres g k (ref_invalid ign e off l).
Proof.
  intros Hg. destruct ign; [|reflexivity]. rewrite !ref_invalid_eq.
  destruct (span junk_byte l) as [junk r]. unfold on_eol.
  replace (length junk + (k + off)) with (k + (length junk + off)) by lia. rewrite eol_at_shift.
  destruct (eol_at (length junk + off) r); cbn [shres]; rewrite ?Hg; reflexivity.
Qed.

Lemma vinvalid_shift k off l : vinvalid hc (k + off) l = shres (shl k) k (vinvalid hc off l).
Proof.
  unfold vinvalid. rewrite (ref_invalid_shift (fun x => x)) by reflexivity.
  destruct (ref_invalid _ _ off l); reflexivity.
Qed.

Lemma ref_value_lines_shift k voff racc off l :
  ref_value_lines hc (k + voff) racc (k + off) l = shres (shl k) k (ref_value_lines hc voff racc off l).
Proof.
  apply (ref_value_lines_ind hc voff (fun racc off l x =>
           ref_value_lines hc (k + voff) racc (k + off) l = shres (shl k) k x)).
  - intros racc' o l' Hp. apply rvl_part, Hp.
  - intros racc' o b2 r2 H10. apply rvl_err, H10.
  - intros racc' o b r x Hv IH. rewrite rvl_char by exact Hv. rewrite <- IH. f_equal. lia.
  - intros racc' o e r He Hs. rewrite rvl_stop by assumption. cbn [shres]. unfold vtrim. cbn [shl]. f_equal. lia.
  - intros racc' o e b r x He Hf Hw IH. rewrite rvl_fold by assumption. rewrite <- IH. f_equal. lia.
  - intros racc' o b r Hv H13 H10. rewrite rvl_bad by assumption. apply vinvalid_shift.
Qed.

Lemma ref_value_start_shift k off l :
  ref_value_start hc (k + off) l = shres (shl k) k (ref_value_start hc off l).
Proof.
  apply (ref_value_start_ind hc (fun off l x => ref_value_start hc (k + off) l = shres (shl k) k x)).
  - intros o l' Hp. apply rvs_part, Hp.
  - intros o b2 r2 H10. apply rvs_err, H10.
  - intros o b r x Hw IH. rewrite rvs_ws by exact Hw. rewrite <- IH. f_equal. lia.
  - intros o b r Hv Hw. rewrite rvs_value by assumption. apply ref_value_lines_shift.
  - intros o e r He Hs. rewrite rvs_stop by assumption. cbn [shres shl]. f_equal. lia.
  - intros o e b r x He Hf Hw IH. rewrite rvs_fold by assumption. rewrite <- IH. f_equal. lia.
  - intros o b r Hv H13 H10. rewrite rvs_bad by assumption. apply vinvalid_shift.
Qed.

Lemma dropped_shl k v : dropped (shl k v) = dropped v.
Proof. destruct v; reflexivity. Qed.

Lemma ref_value_shift k name off l :
  ref_value hc (shl k name) (k + off) l = shres (shline k) k (ref_value hc name off l).
Proof.
  unfold ref_value. rewrite ref_value_start_shift.
  destruct (ref_value_start hc off l) as [v o r| |e]; cbn [shres rbind]; try reflexivity.
  rewrite dropped_shl. destruct (dropped v); reflexivity.
Qed.

Lemma ref_header_line_shift first k off l :
  ref_header_line hc first (k + off) l = shres (shline k) k (ref_header_line hc first off l).
Proof.
  rewrite !ref_header_line_eq. unfold on_eol. rewrite eol_at_shift.
  destruct (eol_at off l) as [o r| | |]; try reflexivity.
  destruct l as [|b l']; [reflexivity|]. destruct (negb (tchar b)).
  { destruct (allow_space_before_first_header_name hc && first && ws b).
    - destruct (span ws (b :: l')) as [w r']. cbn [shres shline]. f_equal. lia.
    - apply ref_invalid_shift. reflexivity. }
  destruct (span tchar (b :: l')) as [name r1]. cbn zeta.
  destruct (if allow_spaces_after_header_name hc then span ws r1 else ([], r1)) as [w r3].
  destruct r3 as [|c r4]; [reflexivity|]. destruct (is 58 c).
  - replace (S (length w + (length name + (k + off)))) with (k + S (length w + (length name + off))) by lia.
    apply (ref_value_shift k (Sub off name)).
  - replace (length w + (length name + (k + off))) with (k + (length w + (length name + off))) by lia.
    apply ref_invalid_shift. reflexivity.
Qed.

Definition shhdr (k : nat) (h : sl * sl) : sl * sl := (shl k (fst h), shl k (snd h)).
Definition shstatus (k : nat) (st : status) : status :=
  match st with Complete n => Complete (k + n) | x => x end.

Lemma ref_header_block_shift : forall f cap k hs off l,
  ref_header_block hc f cap (map (shhdr k) hs) (k + off) l =
  (let (st, hs') := ref_header_block hc f cap hs off l in (shstatus k st, map (shhdr k) hs')).
Proof.
  induction f as [|f IH]; intros cap k hs off l; [reflexivity|]. rewrite !ref_header_block_S.
  replace (null (map (shhdr k) hs)) with (null hs) by (destruct hs; reflexivity).
  rewrite ref_header_line_shift.
  destruct (ref_header_line hc (null hs) off l) as [x o r| |e]; cbn [shres block_step]; try reflexivity.
  destruct x as [| |n v]; cbn [shline]; try reflexivity.
  - apply IH.
  - rewrite map_length. destruct (Nat.ltb (length hs) cap); [|reflexivity].
    specialize (IH cap k (hs ++ [(n, v)]) o r). rewrite map_app in IH. exact IH.
Qed.

Theorem ref_headers_shift : forall cap k l,
  ref_headers hc cap k l =
  (let (st, hs) := ref_headers hc cap 0 l in (shstatus k st, map (shhdr k) hs)).
Proof.
  intros cap k l. unfold ref_headers.
  pose proof (ref_header_block_shift (S (length l)) cap k [] 0 l) as H.
  cbn [map] in H. rewrite Nat.add_0_r in H. exact H.
Qed.
End Shift.
