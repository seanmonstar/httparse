(* RuntimeProg.v -- soundness of the abstract interpreter of RtProg.v: a program it accepts (with detect() <> 0)
   keeps the cell at 0-or-d and makes every thread return d, for any number of threads and every interleaving
   of their relaxed loads and stores. *)
From Coq Require Import List NArith Bool Arith.
From HV Require Import RtProg.
From HV.Proofs Require RuntimeCell.
Import ListNotations.

Section Sound.
Variable d : N.
Hypothesis d_nonzero : d <> 0%N.
Variable prog : list instr.
(* Any fuel with which the interpreter accepts the program.  It stays a variable: with a numeral every
   `cbn` / `unfold` below would unroll `acheck` that many times; the number is put in where the theorem is used
   (Thm/C13.v), by evaluation. *)
Variable fuel0 : nat.

Definition val_ok (v : N) : Prop := v = 0%N \/ v = d.
Definition gamma (a : aval) (v : N) : Prop :=
  match a with AZero => v = 0%N | AD => v = d | AOk => val_ok v | ATop => True end.
Definition agree (rho : nat -> aval) (regs : nat -> N) : Prop := forall r, gamma (rho r) (regs r).

Definition tinv (t : thread) : Prop :=
  (t_out t = None /\ exists f rho, agree rho (t_regs t) /\ acheck f (t_k t) rho = true) \/
  (t_k t = [] /\ t_out t = Some d).
Definition inv (s : state) : Prop := Forall val_ok (mo s) /\ Forall tinv (threads s).

Lemma agree_upd rho regs r a v : agree rho regs -> gamma a v -> agree (upd rho r a) (upd regs r v).
Proof. intros H Hg r'. unfold upd. destruct (Nat.eqb r' r); [exact Hg|apply H]. Qed.
Lemma agree_refine rho regs r a : agree rho regs -> gamma a (regs r) -> agree (upd rho r a) regs.
Proof. intros H Hg r'. unfold upd. destruct (Nat.eqb r' r) eqn:E; [apply Nat.eqb_eq in E; subst; exact Hg|apply H]. Qed.
Lemma is_AD_gamma a v : is_AD a = true -> gamma a v -> v = d.
Proof. destruct a; cbn; intros H Hg; try discriminate; exact Hg. Qed.

Lemma split_zero_sound a v : gamma a v ->
  match (if N.eqb v 0 then fst else snd) (split_zero a) with Some a' => gamma a' v | None => False end.
Proof.
  intros Hg. destruct (N.eqb_spec v 0) as [->|Hne]; destruct a; cbn in *.
  - reflexivity.
  - apply d_nonzero. symmetry. exact Hg.
  - reflexivity.
  - reflexivity.
  - contradiction.
  - exact Hg.
  - destruct Hg as [Hg|Hg]; [contradiction|exact Hg].
  - exact Logic.I.
Qed.

Lemma tinv_run k regs seen f rho : agree rho regs -> acheck f k rho = true -> tinv (mkthread k regs seen None).
Proof. intros Ha Hc. left. split; [reflexivity|]. exists f, rho. split; assumption. Qed.
Lemma tinv_initial : acheck fuel0 prog (fun _ => ATop) = true -> tinv (mkthread prog (fun _ => 0%N) 0 None).
Proof. intros Hc. exact (tinv_run _ _ _ fuel0 (fun _ => ATop) (fun r => Logic.I) Hc). Qed.
Lemma inv_init n : acheck fuel0 prog (fun _ => ATop) = true -> inv (init prog n).
Proof.
  intros Hc. unfold inv, init. cbn [mo threads]. split.
  - constructor; [left; reflexivity|constructor].
  - apply Forall_forall. intros t Ht. apply repeat_spec in Ht. subst t. apply tinv_initial. exact Hc.
Qed.

Lemma tinv_running t i k : tinv t -> t_k t = i :: k ->
  t_out t = None /\ exists f rho, agree rho (t_regs t) /\ acheck (S f) (i :: k) rho = true.
Proof.
  intros [[Ho (f & rho & Ha & Hc)]|[Hk _]] Hk'; [|rewrite Hk' in Hk; discriminate].
  split; [exact Ho|]. rewrite Hk' in Hc. destruct f as [|f]; [discriminate|]. exists f, rho. split; assumption.
Qed.

Lemma if_checked f z r body els k rho regs :
  agree rho regs -> acheck (S f) (IIf z r body els :: k) rho = true ->
  exists rho', agree rho' regs /\
    acheck f ((if Bool.eqb (N.eqb (regs r) 0) z then body else els) ++ k) rho' = true.
Proof.
  intros Ha Hc. cbn [acheck] in Hc. pose proof (split_zero_sound _ _ (Ha r)) as Hs.
  destruct (split_zero (rho r)) as [az anz].
  assert (Hr : forall o body', match o with Some a' => gamma a' (regs r) | None => False end ->
            match o with Some a => acheck f (body' ++ k) (upd rho r a) | None => true end = true ->
            exists rho', agree rho' regs /\ acheck f (body' ++ k) rho' = true).
  { intros [a'|] body' Hg Hb; [|contradiction]. exists (upd rho r a'). split; [apply agree_refine; assumption|exact Hb]. }
  destruct z; apply andb_true_iff in Hc as [Hin Hout].
  - (* `if r == 0`: the body was checked under az, the else-branch under anz *)
    destruct (N.eqb (regs r) 0); cbn [fst snd Bool.eqb] in *; [exact (Hr az body Hs Hin)|exact (Hr anz els Hs Hout)].
  - (* `if r != 0`: the other way round *)
    destruct (N.eqb (regs r) 0); cbn [fst snd Bool.eqb] in *; [exact (Hr az els Hs Hout)|exact (Hr anz body Hs Hin)].
Qed.

(* RtProg.set_nth is RuntimeCell.set_nth written again, so the lemma about the one serves the other *)
Lemma inv_set_thread m ts i t : Forall val_ok m -> Forall tinv ts -> tinv t -> inv (mkstate m (set_nth i t ts)).
Proof. intros Hm Ht Hi. split; [exact Hm|]. exact (RuntimeCell.Forall_set_nth tinv i t ts Ht Hi). Qed.

Lemma inv_step s s' : inv s -> step d s s' -> inv s'.
Proof.
  intros [Hm Ht] Hs.
  inversion Hs as [s0 i t r k j v Hn Hk Hj Hv | s0 i t r k Hn Hk | s0 i t r k Hn Hk
                  | s0 i t a b k Hn Hk
                  | s0 i t z r body els k Hn Hk Hz | s0 i t z r body els k Hn Hk Hz | s0 i t r k Hn Hk]; subst;
    destruct (tinv_running _ _ _ (RuntimeCell.Forall_nth_error _ _ _ _ Ht Hn) Hk) as (Ho & f & rho & Ha & Hc);
    rewrite ?Ho; apply inv_set_thread; try exact Ht; try exact Hm.
  - (* load *)
    apply (tinv_run _ _ _ f (upd rho r AOk)); [|exact Hc]. apply agree_upd; [exact Ha|].
    exact (RuntimeCell.Forall_nth_error _ _ _ _ Hm Hv).
  - (* detect *)
    apply (tinv_run _ _ _ f (upd rho r AD)); [|exact Hc]. apply agree_upd; [exact Ha|reflexivity].
  - (* store: the cell receives d *)
    apply andb_true_iff in Hc as [Hd _]. apply Forall_app. split; [exact Hm|].
    constructor; [right; exact (is_AD_gamma _ _ Hd (Ha r))|constructor].
  - (* store: the thread goes on *)
    apply andb_true_iff in Hc as [_ Hc]. exact (tinv_run _ _ _ f rho Ha Hc).
  - (* move *)
    apply (tinv_run _ _ _ f (upd rho a (rho b))); [|exact Hc]. apply agree_upd; [exact Ha|apply Ha].
  - (* if, branch taken *)
    destruct (if_checked _ _ _ _ _ _ _ _ Ha Hc) as (rho' & Ha' & Hc').
    rewrite eqb_reflx in Hc'. exact (tinv_run _ _ _ f rho' Ha' Hc').
  - (* if, branch skipped *)
    destruct (if_checked _ _ _ _ _ _ _ _ Ha Hc) as (rho' & Ha' & Hc').
    rewrite Hz in Hc'. destruct z; exact (tinv_run _ _ _ f rho' Ha' Hc').
  - (* return *)
    right. split; [reflexivity|]. cbn [t_out]. f_equal. exact (is_AD_gamma _ _ Hc (Ha r)).
Qed.

Theorem acheck_sound : acheck fuel0 prog (fun _ => ATop) = true -> forall n s, reachable d prog n s ->
  Forall val_ok (mo s) /\
  (forall i t, nth_error (threads s) i = Some t -> t_k t = [] -> t_out t = Some d) /\
  (forall i t v, nth_error (threads s) i = Some t -> t_out t = Some v -> v = d).
Proof.
  intros Hc n s Hr.
  assert (Hi : inv s) by (induction Hr; [apply inv_init; exact Hc|eapply inv_step; eauto]).
  destruct Hi as [Hm Ht]. split; [exact Hm|]. split.
  - intros i t Hn Hk. destruct (RuntimeCell.Forall_nth_error _ _ _ _ Ht Hn) as [[_ (f & rho & _ & Hf)]|[_ Ho]]; [|exact Ho].
    rewrite Hk in Hf. destruct f; discriminate.
  - intros i t v Hn Ho. destruct (RuntimeCell.Forall_nth_error _ _ _ _ Ht Hn) as [[Hno _]|[_ Hd]].
    + rewrite Hno in Ho. discriminate.
    + rewrite Hd in Ho. injection Ho as <-. reflexivity.
Qed.
End Sound.
