(* Proofs/Framing.v -- C03, remaining halves: Partial means no empty line yet (header block),
   chunk-size framing, and the framing of whole messages. *)
From Coq Require Import List NArith PeanoNat Lia Bool.
From HV Require Import Cursor Model Api Spec.
From HV.Proofs Require Import RefInd RefFacts Chunk Clean.
Import ListNotations.

Theorem ref_headers_partial hc cap off l hs :
  ref_headers hc cap off l = (Partial, hs) -> blank_free (10%N :: l) = true.
Proof.
  unfold ref_headers. intros H. pose proof (ref_header_block_framing hc (S (length l)) cap [] off l) as T.
  rewrite H in T. destruct T as [H1 H2]. rewrite blank_free_cons, H1, H2, orb_true_r. reflexivity.
Qed.

Definition no_cr (l : list N) : Prop := Forall (fun b => is 13 b = false) l.

(* Complete: n is just past a CR LF with no CR before it; Partial: there is no CR LF in the buffer *)
Definition chunk_framed (buf : list N) (st : status) : Prop :=
  match st with
  | Complete n => exists pre r, buf = pre ++ 13%N :: 10%N :: r /\ n = length pre + 2 /\ no_cr pre
  | Partial => no_cr buf \/ exists pre, buf = pre ++ [13%N] /\ no_cr pre
  | _ => True
  end.

(* only CR takes the line to its LF test, no byte that keeps it going is CR, and the line is
   finished only from that test *)
Lemma cstep_cr ph count b :
  match cstep ph count b with
  | Go AfterCr => b = 13%N
  | Go _ | Digit => is 13 b = false
  | Fin => ph = AfterCr
  | Bad => True
  end.
Proof.
  assert (After : match after_size b with Go AfterCr => b = 13%N | Go _ | Digit => is 13 b = false
                                         | Fin => False | Bad => True end).
  { unfold after_size. destruct (is 13 b) eqn:E; [exact (is_eq _ _ E)|].
    destruct (is 59 b); [reflexivity|]. destruct (ws b); [reflexivity|exact I]. }
  destruct ph; cbn [cstep].
  - destruct (hexdig b) eqn:Eh.
    + destruct (Nat.ltb 15 count); [exact I|exact (excludes hexdig 13 eq_refl b Eh)].
    + destruct (Nat.eqb count 0); [exact I|]. destruct (after_size b) as [|[]| |]; try exact After. destruct After.
  - destruct (after_size b) as [|[]| |]; try exact After. destruct After.
  - destruct (is 13 b) eqn:E; [exact (is_eq _ _ E)|reflexivity].
  - destruct (is 10 b); [reflexivity|exact I].
Qed.

Lemma cspec_lf_framed l pre count size : no_cr pre ->
  chunk_framed (pre ++ 13%N :: l) (fst (cspec AfterCr count size (S (length pre)) l)).
Proof.
  intros Hp. rewrite cspec_lf. destruct l as [|d l']; [right; exists pre; split; [reflexivity|exact Hp]|].
  destruct (is 10 d) eqn:E; [|exact I]. apply is_eq in E. subst d.
  exists pre, l'. split; [reflexivity|split; [exact (Nat.add_comm 2 (length pre))|exact Hp]].
Qed.

Lemma cspec_framed : forall l pre ph count size, no_cr pre -> ph <> AfterCr ->
  chunk_framed (pre ++ l) (fst (cspec ph count size (length pre) l)).
Proof.
  induction l as [|b l IH]; intros pre ph count size Hp Hph; [left; rewrite app_nil_r; exact Hp|].
  assert (Next : is 13 b = false -> forall ph' count' size', ph' <> AfterCr ->
            chunk_framed (pre ++ b :: l) (fst (cspec ph' count' size' (S (length pre)) l))).
  { intros Hb ph' count' size' Hph'. rewrite <- (last_length pre b).
    change (pre ++ b :: l) with (pre ++ [b] ++ l). rewrite app_assoc. apply IH; [|exact Hph'].
    apply Forall_app. split; [exact Hp|constructor; [exact Hb|constructor]]. }
  cbn [cspec]. pose proof (cstep_cr ph count b) as Hs.
  destruct (cstep ph count b) as [|[]| |]; try (apply Next; [exact Hs|discriminate]).
  - subst b. apply cspec_lf_framed, Hp.
  - contradiction.
  - exact I.
Qed.

Lemma ref_chunk_framed buf : chunk_framed buf (fst (ref_chunk buf)).
Proof. rewrite ref_chunk_spec. apply (cspec_framed buf [] Dig 0 0%N (Forall_nil _)). discriminate. Qed.

Theorem ref_chunk_framing buf n v :
  ref_chunk buf = (Complete n, v) ->
  exists pre r, buf = pre ++ 13%N :: 10%N :: r /\ n = length pre + 2 /\ no_cr pre.
Proof. intros H. pose proof (ref_chunk_framed buf) as T. rewrite H in T. exact T. Qed.

Theorem ref_chunk_partial buf v :
  ref_chunk buf = (Partial, v) -> no_cr buf \/ exists pre, buf = pre ++ [13%N] /\ no_cr pre.
Proof. intros H. pose proof (ref_chunk_framed buf) as T. rewrite H in T. exact T. Qed.

(* [framed spb buf n]: buf = start ++ LF :: body ++ eol ++ rest, n is the offset just after eol,
   eol is an empty line, and there is no empty line in LF :: body *)
Definition framed (spb : bool) (buf : list N) (n : nat) : Prop :=
  exists start body eol rest,
    buf = (start ++ [10%N]) ++ body ++ eol ++ rest /\
    n = length (start ++ [10%N]) + length body + length eol /\
    (eol = [10%N] \/ eol = [13%N; 10%N]) /\
    blank_free (10%N :: body) = true /\
    (spb = false -> body = [] \/ last body 0%N = 10%N).

Lemma msg_framing hc cap buf (line : rres unit) n : consumed Pline buf line -> advances0 0 buf line ->
  fst (ref_tail line hc cap) = Complete n -> framed (allow_space_before_first_header_name hc) buf n.
Proof.
  intros Hc Ha. destruct line as [u o l| |e]; [|discriminate..]. cbn [ref_tail].
  destruct (consumed_len Pline 0 buf u o l Hc Ha) as (q & -> & [_ [start ->]] & ->).
  destruct (ref_headers hc cap _ l) as [s hs] eqn:Eh. cbn [fst]. intros ->.
  apply ref_headers_framing in Eh as (body & eol & rest & -> & -> & He & Hb & Hlast).
  exists start, body, eol, rest. split; [reflexivity|]. split; [clear; lia|]. split; [exact He|]. split; assumption.
Qed.

Theorem ref_request_framing cf cap buf n :
  rq_status (ref_request cf cap buf) = Complete n ->
  framed (allow_space_before_first_header_name (request_hcfg cf)) buf n.
Proof. rewrite ref_request_tail. apply msg_framing; [apply ref_request_line_clean|apply ref_request_line_adv]. Qed.

Theorem ref_response_framing cf cap buf n :
  rp_status (ref_response cf cap buf) = Complete n ->
  framed (allow_space_before_first_header_name (response_hcfg cf)) buf n.
Proof. rewrite ref_response_tail. apply msg_framing; [apply ref_status_line_clean|apply ref_status_line_adv]. Qed.

(* Partial: either the start line is not finished, or the bytes after it contain no empty line *)
Definition unterminated {A} (buf : list N) (line : rres A) : Prop :=
  match line with
  | RPart => True
  | ROk _ o rest => exists start, buf = (start ++ [10%N]) ++ rest /\ blank_free (10%N :: rest) = true
  | RErr _ => False
  end.

Lemma msg_partial hc cap buf (line : rres unit) : consumed Pline buf line ->
  fst (ref_tail line hc cap) = Partial -> unterminated buf line.
Proof.
  intros Hc. destruct line as [u o l| |e]; cbn [ref_tail unterminated]; [|exact (fun _ => I)|discriminate].
  destruct Hc as [q [Hl [_ [start ->]]]]. destruct (ref_headers hc cap o l) as [s hs] eqn:Eh. cbn [fst]. intros ->.
  exists start. split; [exact Hl|exact (ref_headers_partial _ _ _ _ _ Eh)].
Qed.

Theorem ref_request_partial cf cap buf :
  rq_status (ref_request cf cap buf) = Partial ->
  unterminated buf (snd (ref_request_line (allow_multiple_spaces_in_request_line_delimiters cf) buf)).
Proof. rewrite ref_request_tail. apply msg_partial, ref_request_line_clean. Qed.

Theorem ref_response_partial cf cap buf :
  rp_status (ref_response cf cap buf) = Partial ->
  unterminated buf (snd (ref_status_line (allow_multiple_spaces_in_response_status_delimiters cf) buf)).
Proof. rewrite ref_response_tail. apply msg_partial, ref_status_line_clean. Qed.
