(* TieChunk.v -- parse_chunk_size as translated on this run = Model.chunk_loop; every overflow guard the
   translator emitted is discharged here. *)
From Coq Require Import List NArith Bool Arith Lia ZifyBool.
From HV Require Import Cursor Scan Model Imp ImpLib.
From HV.Generated Require Import Lib.
From HV.Proofs Require Import TieBase Mono.
Import ListNotations.
Local Open Scope N_scope.

Section ChunkTie.
Variable dbg : bool.

(* what the function returns when its loop ends in `r`: after the `break`, `bytes.pos()` and `size` *)
Definition chunk_out (r : ires L_g_parse_chunk_size (nat * N) unit unit) : out (nat * N) :=
  match r with
  | IDone _ l c => Done (length (tokrev c), g_parse_chunk_size_m1 l) c
  | IPart _ => Part
  | IFail e _ => Fail e
  | IFault f _ => Fault f
  | IExc (Ret r) _ c => Done r c
  | IExc _ _ _ => Fault Unreachable
  end.
Definition chunk_pos (o : out N) : out (nat * N) :=
  match o with
  | Done size c' => Done (length (tokrev c'), size) c'
  | Part => Part | Fail e => Fail e | Fault f => Fault f
  end.
Definition chunk_mo (o : out N) : out (nat * N) :=
  match o with
  | Done size c' => Done (apos c', size) c'
  | Part => Part | Fail e => Fail e | Fault f => Fault f
  end.

Ltac chunk_unfold :=
  cbv beta iota zeta delta [ibind iret ilift iget iset ipart ifail ifault ithrow iguard
                            bind ret fail next next_opt rest pre tokrev
                            g_parse_chunk_size_m1 g_parse_chunk_size_m2
                            g_parse_chunk_size_m3 g_parse_chunk_size_m4
                            set_g_parse_chunk_size_m1 set_g_parse_chunk_size_m2
                            set_g_parse_chunk_size_m3 set_g_parse_chunk_size_m4
                            in_rng in_range is_digit hex_lower hex_upper is is_ws CR LF SP HT].

(* the model's digit step in the order and form of the guards the translator emits: the counter as an N,
   `fits 64` for the two u64 operations *)
Lemma chunk_digit_eq count size d :
  chunk_digit dbg count size d =
  if 15 <? N.of_nat count then inl None
  else if dbg && (1152921504606846975 <? size) then inl None
  else if fits 64 (size * 16) then
    if fits 64 (size * 16 + d) then inl (Some (S count, size * 16 + d)) else inr ArithOverflow
  else inr ArithOverflow.
Proof.
  unfold chunk_digit, fits. change (2 ^ 64) with two64. change (two64 / 16 - 1) with 1152921504606846975.
  rewrite !N.leb_antisym. replace (Nat.ltb 15 count) with (15 <? N.of_nat count) by lia.
  destruct (15 <? N.of_nat count), (dbg && (1152921504606846975 <? size)), (size * 16 <? two64), (size * 16 + d <? two64); reflexivity.
Qed.

(* the chunk-size loop never commits: `start` stays where Bytes::new put it, so the final `bytes.pos()`
   (cursor - start) is the absolute offset *)
Lemma chunk_loop_keeps_pre : forall f size ics iext count, keeps_pre (chunk_loop dbg f size ics iext count).
Proof.
  induction f as [|f IH]; intros size ics iext count; cbn [chunk_loop]; [apply keeps_pre_fault|].
  apply keeps_pre_bind; [exact keeps_pre_next|intros b]. cbv zeta.
  assert (Hd : forall d, keeps_pre match chunk_digit dbg count size d with
                                   | inl (Some (cnt, sz)) => chunk_loop dbg f sz ics iext cnt
                                   | inl None => fail InvalidChunkSize
                                   | inr flt => fault_ flt
                                   end).
  { intros d. destruct (chunk_digit dbg count size d) as [[[cnt sz]|]|flt];
      [apply IH|apply keeps_pre_fail|apply keeps_pre_fault]. }
  (* the arms in the order of the source: three digit classes, the `fix:` arm, CR, `;`, three of whitespace
     and extension, the rest *)
  apply keeps_pre_if; [apply Hd|]. apply keeps_pre_if; [apply Hd|]. apply keeps_pre_if; [apply Hd|].
  apply keeps_pre_if; [apply keeps_pre_fail|].
  apply keeps_pre_if.
  { apply keeps_pre_bind; [exact keeps_pre_next|intros b'].
    apply keeps_pre_if; [apply keeps_pre_ret|apply keeps_pre_fail]. }
  apply keeps_pre_if; [apply IH|]. apply keeps_pre_if; [apply IH|]. apply keeps_pre_if; [apply IH|].
  apply keeps_pre_if; [apply IH|apply keeps_pre_fail].
Qed.

Lemma chunk_loop_pre : forall f size ics iext count c,
  match chunk_loop dbg f size ics iext count c with Done _ c' => pre c' = pre c | _ => True end.
Proof. intros f size ics iext count c. apply chunk_loop_keeps_pre. Qed.

(* a digit arm after its class test, `Hg` being what that test says of the arm's index guards: the counter fits
   an i32 (`Hf`), RADIX is not 0, then the same four tests on both sides (the first is the premise of `IHd`) *)
Ltac digit_arm IHd Hf Hg :=
  destruct (15 <? N.of_nat _); chunk_unfold; [reflexivity|];
  rewrite Hf; change (negb (16 =? 0)) with true; rewrite orb_true_r; chunk_unfold;
  change (18446744073709551615 / 16) with 1152921504606846975;
  destruct (dbg && _); chunk_unfold; [reflexivity|];
  destruct (fits 64 (_ * 16)); chunk_unfold; [|reflexivity];
  rewrite Hg; chunk_unfold;
  destruct (fits 64 (_ * 16 + _)); chunk_unfold; [|reflexivity];
  apply IHd; reflexivity.

(* wherever the cursor's token started: the position returned is the length of the token *)
Lemma tie_chunk_gen fuel c :
  g_parse_chunk_size dbg fuel c = chunk_pos (chunk_loop dbg fuel 0 true false 0 c).
Proof.
  unfold g_parse_chunk_size, g_parse_chunk_size_body, g_parse_chunk_size_init.
  grab_loop 1%nat B.
  assert (HL : forall f size ics iext count c, (count <= 16)%nat ->
     chunk_out (iloop f 1 B (mkL_g_parse_chunk_size size ics iext (N.of_nat count)) c)
     = chunk_pos (chunk_loop dbg f size ics iext count c)).
  { clear c. induction f as [|f IH]; intros size ics iext count [p t r] Hcnt; [reflexivity|].
    assert (IHd : forall sz c', (15 <? N.of_nat count) = false ->
       chunk_out (iloop f 1 B (mkL_g_parse_chunk_size sz ics iext (N.of_nat count + 1)) c')
       = chunk_pos (chunk_loop dbg f sz ics iext (S count) c')).
    { intros sz c' Hc. replace (N.of_nat count + 1) with (N.of_nat (S count)) by lia. apply IH. lia. }
    assert (Hf : fits 31 (N.of_nat count + 1) = true) by (unfold fits; change (2 ^ 31) with 2147483648; lia).
    cbn [chunk_loop iloop]. unfold B at 1.
    destruct r as [|b r]; [reflexivity|]. chunk_unfold. rewrite !chunk_digit_eq.
    replace (Nat.eqb count 0) with (N.of_nat count =? 0) by lia.
    destruct ((48 <=? b) && (b <=? 57) && ics) eqn:Hd; chunk_unfold.
    { assert (Hg : (48 <=? b) = true) by lia. digit_arm IHd Hf Hg. }
    destruct ((97 <=? b) && (b <=? 102) && ics) eqn:Hd2; chunk_unfold.
    { assert (Hg : fits 8 (b + 10) && (97 <=? b + 10) = true) by (unfold fits; change (2 ^ 8) with 256; lia).
      digit_arm IHd Hf Hg. }
    destruct ((65 <=? b) && (b <=? 70) && ics) eqn:Hd3; chunk_unfold.
    { assert (Hg : fits 8 (b + 10) && (65 <=? b + 10) = true) by (unfold fits; change (2 ^ 8) with 256; lia).
      digit_arm IHd Hf Hg. }
    clear Hd Hd2 Hd3 Hf IHd.
    destruct (((b =? 13) || (b =? 59) || (b =? 9) || (b =? 32)) && (N.of_nat count =? 0)); chunk_unfold;
      [reflexivity|].
    destruct (b =? 13); chunk_unfold.
    { destruct r as [|b2 r]; [reflexivity|]. chunk_unfold. destruct (b2 =? 10); reflexivity. }
    destruct ((b =? 59) && negb iext); chunk_unfold.
    { apply IH; exact Hcnt. }
    rewrite (andb_assoc ((b =? 9) || (b =? 32)) (negb iext) (negb ics)).
    rewrite !(orb_comm (b =? 32) (b =? 9)).
    destruct (((b =? 9) || (b =? 32)) && negb iext && negb ics); chunk_unfold.
    { apply IH; exact Hcnt. }
    destruct (((b =? 9) || (b =? 32)) && ics); chunk_unfold.
    { apply IH; exact Hcnt. }
    destruct iext; [apply IH; exact Hcnt | reflexivity]. }
  specialize (HL fuel 0 true false 0%nat c (Nat.le_0_l 16)). rewrite <- HL.
  unfold irun, ifun, ibind, iset, ilift, pos, iget, iret, chunk_out.
  destruct (iloop _ _ _ _ _) as [a l' c'|l'|e l'|f0 l'|[] l' c']; reflexivity.
Qed.

Lemma tie_chunk fuel c : pre c = O ->
  g_parse_chunk_size dbg fuel c = chunk_mo (chunk_loop dbg fuel 0 true false 0 c).
Proof.
  intros Hpre. rewrite tie_chunk_gen.
  pose proof (chunk_loop_pre fuel 0 true false 0%nat c) as HP.
  destruct (chunk_loop dbg fuel 0 true false 0 c) as [sz c'| | |]; try reflexivity.
  unfold chunk_pos, chunk_mo, apos. rewrite HP, Hpre, Nat.add_0_r. reflexivity.
Qed.

End ChunkTie.
