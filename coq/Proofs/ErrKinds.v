(* Proofs/ErrKinds.v -- which error kinds each reference stage can raise (C10), and the exact
   condition for TooManyHeaders. *)
From Coq Require Import List NArith PeanoNat Lia Bool.
From HV Require Import Cursor Model Spec.
From HV.Proofs Require Import RefInd RefFacts Storage.
Import ListNotations.

Definition errs_in {A} (ok : err -> Prop) (r : rres A) : Prop :=
  match r with RErr e => ok e | _ => True end.

Lemma errs_rbind {A B} ok (r : rres A) (g : A -> nat -> list N -> rres B) :
  errs_in ok r -> (forall a o l, errs_in ok (g a o l)) -> errs_in ok (rbind r g).
Proof. destruct r; cbn [rbind errs_in]; auto. Qed.

Lemma errs_one {A} (p : err -> Prop) e (r : rres A) : p e -> errs_in (eq e) r -> errs_in p r.
Proof. intros H. destruct r as [| |e']; cbn [errs_in]; [auto|auto|]. intros <-. exact H. Qed.

Section Kinds.
Variable hc : hcfg.

Lemma ref_invalid_errs ign e off l : errs_in (eq e) (ref_invalid ign e off l).
Proof.
  destruct (ref_invalid ign e off l) as [x o r| |e'] eqn:E; [exact I|exact I|].
  symmetry. exact (ref_invalid_err _ _ _ _ _ E).
Qed.

Lemma vinvalid_errs off l : errs_in (eq HeaderValue) (vinvalid hc off l).
Proof. apply errs_rbind; [apply ref_invalid_errs|intros; exact I]. Qed.

Lemma ref_value_lines_errs voff racc off l : errs_in (eq HeaderValue) (ref_value_lines hc voff racc off l).
Proof.
  apply (ref_value_lines_ind hc voff (fun _ _ _ x => errs_in (eq HeaderValue) x)); cbn [errs_in]; auto.
  intros. apply vinvalid_errs.
Qed.

Lemma ref_value_start_errs off l : errs_in (eq HeaderValue) (ref_value_start hc off l).
Proof.
  apply (ref_value_start_ind hc (fun _ _ x => errs_in (eq HeaderValue) x)); cbn [errs_in]; auto.
  - intros. apply ref_value_lines_errs.
  - intros. apply vinvalid_errs.
Qed.

Lemma ref_value_errs name off l : errs_in (eq HeaderValue) (ref_value hc name off l).
Proof. apply errs_rbind; [apply ref_value_start_errs|intros; exact I]. Qed.

Definition line_err (e : err) : Prop := e = NewLine \/ e = HeaderName \/ e = HeaderValue.

(* HeaderName: anything wrong from the line start up to and including the colon; HeaderValue:
   after the colon; NewLine: a CR not followed by LF at the start of a line *)
Lemma ref_header_line_errs first off l : errs_in line_err (ref_header_line hc first off l).
Proof.
  assert (Inv : forall o l', errs_in line_err (ref_invalid (ignore_invalid_headers hc) HeaderName o l')).
  { intros. apply (errs_one _ HeaderName); [right; left; reflexivity|apply ref_invalid_errs]. }
  apply ref_header_line_cases; [exact I|left; reflexivity|intros; exact I|intros; exact I|intros; apply Inv|].
  intros. apply (errs_one _ HeaderValue); [right; right; reflexivity|apply ref_value_errs].
Qed.

Lemma ref_header_block_errs cap : forall f hs off l e,
  fst (ref_header_block hc f cap hs off l) = Error e -> line_err e \/ e = TooManyHeaders.
Proof.
  apply (ref_header_block_ind hc cap (fun _ hs off l res =>
    forall e, fst res = Error e -> line_err e \/ e = TooManyHeaders)); try discriminate.
  - intros _ hs off l e0 El e [= <-]. left.
    pose proof (ref_header_line_errs (null hs) off l) as He. rewrite El in He. exact He.
  - intros _ hs off l n v o r _ _ e [= <-]. right. reflexivity.
  - intros _ hs off l o r res _ IH. exact IH.
  - intros _ hs off l n v o r res _ _ IH. exact IH.
Qed.

(* TooManyHeaders comes only from the capacity test, with the array exactly full *)
Lemma tmh_len : forall f cap hs off l hs',
  ref_header_block hc f cap hs off l = (Error TooManyHeaders, hs') -> length hs <= cap -> length hs' = cap.
Proof.
  intros f cap. revert f. apply (ref_header_block_ind hc cap (fun _ hs _ _ res => forall hs',
    res = (Error TooManyHeaders, hs') -> length hs <= cap -> length hs' = cap)).
  - discriminate.
  - discriminate.
  - discriminate.
  - intros _ hs off l e El hs' [= -> _]. pose proof (ref_header_line_errs (null hs) off l) as He.
    rewrite El in He. destruct He as [He|[He|He]]; discriminate.
  - intros _ hs off l n v o r _ Hge hs' [= <-] Hle. lia.
  - intros _ hs off l o r res _ IH. exact IH.
  - intros _ hs off l n v o r res _ Hlt IH hs' H _. apply (IH hs' H).
    rewrite app_length. cbn [length]. lia.
Qed.

Theorem too_many_iff_block : forall f cap hs off l, length hs <= cap ->
  fst (ref_header_block hc f cap hs off l) = Error TooManyHeaders <->
  length (snd (ref_header_block hc f (S cap) hs off l)) = S cap.
Proof.
  intros f cap hs off l Hh.
  pose proof (capacity_law_block hc f cap (S cap) hs off l ltac:(lia) Hh) as Law. cbn zeta in Law.
  destruct (ref_header_block hc f (S cap) hs off l) as [st' hs'] eqn:E'. cbn [snd] in *.
  assert (Hle : length hs' <= S cap).
  { destruct (ref_header_block_inv hc (S cap) f hs off l) as (_ & H & _). rewrite E' in H. apply H. lia. }
  split.
  - intros H. destruct (Nat.leb_spec (length hs') cap) as [Hc|Hc]; [|lia].
    rewrite Law in H. cbn [fst] in H. subst st'.
    apply tmh_len in E'; lia.
  - intros H. rewrite Law. destruct (Nat.leb_spec (length hs') cap); [lia|reflexivity].
Qed.
End Kinds.

Definition req_line_err (e : err) : Prop := e = NewLine \/ e = Token \/ e = Version.
Definition resp_line_err (e : err) : Prop := e = NewLine \/ e = Version \/ e = Status.

Lemma ref_eol_errs e off l : errs_in (eq e) (ref_eol e off l).
Proof.
  rewrite ref_eol_eq. unfold on_eol. destruct (eol_at off l); [exact I|exact I|reflexivity|reflexivity].
Qed.
Lemma ref_empty_lines_errs off l : errs_in (eq NewLine) (ref_empty_lines off l).
Proof.
  apply (ref_empty_lines_ind (fun _ _ x => errs_in (eq NewLine) x)); [intros; exact I|reflexivity| |intros; exact I].
  intros ? ? ? ? _ IH. exact IH.
Qed.
Lemma ref_spaces_errs on off l p : errs_in p (ref_spaces on off l).
Proof. unfold ref_spaces. destruct on; [|exact I]. destruct (span _ l) as [s r]. destruct r; exact I. Qed.
Lemma ref_method_errs off l : errs_in (eq Token) (ref_method off l).
Proof.
  unfold ref_method. destruct (span tchar l) as [m r]. destruct r as [|b r']; [exact I|].
  destruct (null m); [reflexivity|]. destruct (is 32 b); [exact I|reflexivity].
Qed.
Lemma ref_target_errs off l : errs_in (eq Token) (ref_target off l).
Proof.
  unfold ref_target. destruct (span uri_char l) as [m r]. destruct r as [|b r']; [exact I|].
  destruct (negb (is 32 b)); [reflexivity|]. destruct (null m); [reflexivity|].
  destruct (negb (utf8_valid m)); [reflexivity|exact I].
Qed.
Lemma ref_version_errs off l : errs_in (eq Version) (ref_version off l).
Proof.
  unfold ref_version. destruct (take 8 l).
  - destruct (list_eqb _ _); [exact I|]. destruct (list_eqb _ _); [exact I|reflexivity].
  - destruct (is_prefix l HTTP1dot); [exact I|reflexivity].
Qed.

Theorem ref_request_line_errs ms buf : errs_in req_line_err (snd (ref_request_line ms buf)).
Proof.
  assert (Nl : req_line_err NewLine) by (left; reflexivity).
  assert (Tk : req_line_err Token) by (right; left; reflexivity).
  assert (Vs : req_line_err Version) by (right; right; reflexivity).
  (* one bullet per stage, in the order they run *)
  rewrite ref_request_line_snd. apply errs_rbind; [apply errs_rbind; [apply errs_rbind; [apply errs_rbind|]|]|].
  - apply (errs_one _ _ _ Nl), ref_empty_lines_errs.
  - intros. apply (errs_one _ _ _ Tk), ref_method_errs.
  - intros. apply errs_rbind; [apply ref_spaces_errs|].
    intros. apply (errs_one _ _ _ Tk), ref_target_errs.
  - intros. apply errs_rbind; [apply ref_spaces_errs|].
    intros. apply (errs_one _ _ _ Vs), ref_version_errs.
  - intros. apply (errs_one _ _ _ Nl), ref_eol_errs.
Qed.

Lemma ref_sp_errs e off l : errs_in (eq e) (ref_sp e off l).
Proof. unfold ref_sp. destruct l as [|b r]; [exact I|]. destruct (is 32 b); [exact I|reflexivity]. Qed.
Lemma ref_code_errs off l : errs_in (eq Status) (ref_code off l).
Proof.
  unfold ref_code. destruct l as [|a r1]; [exact I|]. destruct (negb (digit a)); [reflexivity|].
  destruct r1 as [|b r2]; [exact I|]. destruct (negb (digit b)); [reflexivity|].
  destruct r2 as [|c r3]; [exact I|]. destruct (negb (digit c)); [reflexivity|exact I].
Qed.
Lemma ref_reason_errs off l : errs_in (eq Status) (ref_reason off l).
Proof.
  unfold ref_reason. destruct (span reason_char l) as [t r].
  apply errs_rbind; [apply ref_eol_errs|intros; exact I].
Qed.
Lemma ref_after_code_errs ms off l : errs_in (eq Status) (ref_after_code ms off l).
Proof.
  unfold ref_after_code. destruct l as [|b r]; [exact I|].
  destruct (is 32 b); [apply errs_rbind; [apply ref_spaces_errs|intros; apply ref_reason_errs]|].
  destruct (is 13 b || is 10 b); [|reflexivity].
  apply errs_rbind; [apply ref_eol_errs|intros; exact I].
Qed.

Theorem ref_status_line_errs ms buf : errs_in resp_line_err (snd (ref_status_line ms buf)).
Proof.
  assert (Nl : resp_line_err NewLine) by (left; reflexivity).
  assert (Vs : resp_line_err Version) by (right; left; reflexivity).
  assert (St : resp_line_err Status) by (right; right; reflexivity).
  rewrite ref_status_line_snd. apply errs_rbind; [apply errs_rbind; [apply errs_rbind; [apply errs_rbind|]|]|].
  - apply (errs_one _ _ _ Nl), ref_empty_lines_errs.
  - intros. apply (errs_one _ _ _ Vs), ref_version_errs.
  - intros. apply errs_rbind; [apply errs_rbind; [apply (errs_one _ _ _ Vs), ref_sp_errs|]|].
    + intros. apply ref_spaces_errs.
    + intros. apply (errs_one _ _ _ St), ref_code_errs.
  - intros. apply (errs_one _ _ _ St), ref_after_code_errs.
  - intros. exact I.
Qed.
