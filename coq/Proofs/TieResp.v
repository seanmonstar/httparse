(* TieResp.v -- `Response::parse_with_config_and_uninit_headers` and `Response::parse_with_config` as translated
   from /repo/src/lib.rs on this run (Generated/LibApi.v) = Api.response_core / response_with_config: the core
   stage by stage (TieApiBase.stage_rule); the three arms after the status code each end by
   TieApiBase.core_tail. *)
From Coq Require Import List NArith Bool.
From HV Require Import Cursor Scan Model Api Imp ImpLib ImpGlue.
From HV.Generated Require Import Lib LibApi.
From HV.Proofs Require Import TieBase Mono TieStartResp TieHeaders TieApiBase.
Import ListNotations.
Local Open Scope N_scope.

Section ApiTie.
Variable E : env.
Hypothesis Efwd : env_fwd E.

Definition fin_resp (r : ires L_g_response_core nat unit nat) : rp_res :=
  let rp l := mkresp (g_response_core_self_version l) (g_response_core_self_code l)
                     (g_response_core_self_reason l) (g_response_core_self_headers l) in
  match r with
  | IDone n l _ => (Complete n, rp l, g_response_core_v_mem l)
  | IPart l => (Partial, rp l, g_response_core_v_mem l)
  | IFail e l => (Error e, rp l, g_response_core_v_mem l)
  | IFault f l => (Faulted f, rp l, g_response_core_v_mem l)
  | IExc _ l _ => (Faulted Unreachable, rp l, g_response_core_v_mem l)
  end.

Definition rp_of (l : L_g_response_core) : response :=
  mkresp (g_response_core_self_version l) (g_response_core_self_code l)
         (g_response_core_self_reason l) (g_response_core_self_headers l).

Theorem tie_response_core cf buf rp arr :
  fin_resp (ifun (g_response_core_body E (S (length buf)) cf buf)
                 (g_response_core_init (p_version rp) (p_code rp) (p_reason rp) (p_hdrs rp) arr arr)
                 (cur_new buf))
  = response_core E cf buf rp arr.
Proof.
  destruct rp as [v0 c0 r0 h0].
  unfold g_response_core_body, g_response_core_init, response_core, after_code, space. cbv zeta.
  change fin_resp with (fin_gen (B:=unit) rp_of g_response_core_v_mem).
  pose proof (step_refl (cur_new buf)) as S0.
  rewrite stage_bind.
  stage_step (ilift_ext (tie_skip_empty_lines _)) (mono_skip_empty_lines _).
  stage_step (ilift_ext tie_parse_version) mono_parse_version.
  rewrite ifun_iset, !stage_bind.
  (* `space!` is two statements, the model's `space` two binds and `ret tt` *)
  stage_step (iexpect _ _) (mono_expect _ _).
  rewrite stage_bind. stage_step (fun _ _ => eq_refl) mono_slice.
  rewrite stage_ret. cbv beta. rewrite ifun_opt, stage_bind.
  stage_step (tie_opt_skip_spaces _ _) (mono_opt_skip_spaces _ _).
  stage_step (ilift_ext tie_parse_code) mono_parse_code.
  (* the byte after the code: both sides test it for SP, CR, LF in this order; in the translated body the store
     into `self.reason` is inside each arm *)
  rewrite ifun_iset, ifun_assoc, stage_bind.
  stage_step inext mono_next as b.
  unfold is, SP, CR, LF.
  destruct (N.eqb b 32); [|destruct (N.eqb b 13); [|destruct (N.eqb b 10); [|reflexivity]]]; rewrite !stage_bind.
  - rewrite ifun_assoc, ifun_opt.
    stage_step (tie_opt_skip_spaces _ _) (mono_opt_skip_spaces _ _).
    rewrite ifun_assoc, stage_bind. stage_step (fun _ _ => eq_refl) mono_slice.
    rewrite ifun_assoc. stage_step (ilift_ext (tie_parse_reason _)) (mono_parse_reason _).
    rewrite ifun_assoc, ifun_iset, ifun_ret, core_tail by eassumption. reflexivity.
  - rewrite ifun_assoc. stage_step (iexpect _ _) (mono_expect _ _).
    rewrite ifun_assoc, stage_bind. stage_step (fun _ _ => eq_refl) mono_slice.
    rewrite ifun_assoc, ifun_iset, ifun_ret, core_tail by eassumption. reflexivity.
  - rewrite ifun_assoc. stage_step (fun _ _ => eq_refl) mono_slice.
    rewrite ifun_assoc, ifun_iset, ifun_ret, core_tail by eassumption. reflexivity.
Qed.

(* Response::parse_with_config as translated = Api.response_with_config *)
Definition fin_respw (r : ires L_g_response_with_config nat unit nat) : rp_res :=
  let rp l := mkresp (g_response_with_config_self_version l) (g_response_with_config_self_code l)
                     (g_response_with_config_self_reason l) (g_response_with_config_self_headers l) in
  match r with
  | IDone n l _ => (Complete n, rp l, g_response_with_config_v_mem l)
  | IPart l => (Partial, rp l, g_response_with_config_v_mem l)
  | IFail e l => (Error e, rp l, g_response_with_config_v_mem l)
  | IFault f l => (Faulted f, rp l, g_response_with_config_v_mem l)
  | IExc _ l _ => (Faulted Unreachable, rp l, g_response_with_config_v_mem l)
  end.

Theorem tie_response_with_config cf buf rp x y :
  fin_respw (ifun (g_response_with_config_body E (S (length buf)) cf buf)
                  (g_response_with_config_init (p_version rp) (p_code rp) (p_reason rp) (p_hdrs rp) x y)
                  (cur_new buf))
  = response_with_config E cf buf rp.
Proof.
  destruct rp as [v0 c0 r0 h0]. unfold response_with_config. cbn [p_version p_code p_reason p_hdrs].
  rewrite <- (tie_response_core cf buf (mkresp v0 c0 r0 []) h0). cbn [p_version p_code p_reason p_hdrs].
  unfold g_response_with_config_body, g_response_with_config_init, ifun at 1.
  cbv beta iota delta [ibind iget iset isub_catch].
  destruct (ifun (g_response_core_body E (S (length buf)) cf buf) _ (cur_new buf)) as [n l c|l|e l|f l|[] l c]; reflexivity.
Qed.

End ApiTie.
