(* TiePH.v -- `parse_headers` as translated from /repo/src/lib.rs on this run (Generated/LibApi.v) =
   Api.parse_headers: one call of the header machine (TieApiBase.icall_headers_spec). *)
From Coq Require Import List NArith Bool.
From HV Require Import Cursor Scan Model Api Imp ImpLib ImpGlue.
From HV.Generated Require Import Lib LibApi.
From HV.Proofs Require Import TieBase Mono TieHeaders TieApiBase.
Import ListNotations.
Local Open Scope N_scope.

Section ApiTie.
Variable E : env.
Hypothesis Efwd : env_fwd E.

Definition fin_ph (r : ires L_g_parse_headers (nat * list slot) unit (nat * list slot))
  : status * list slot * list slot :=
  match r with
  | IDone (n, hs) l _ => (Complete n, hs, g_parse_headers_v_mem l)
  | IPart l => (Partial, [], g_parse_headers_v_mem l)
  | IFail e l => (Error e, [], g_parse_headers_v_mem l)
  | IFault f l => (Faulted f, [], g_parse_headers_v_mem l)
  | IExc _ l _ => (Faulted Unreachable, [], g_parse_headers_v_mem l)
  end.

Theorem tie_parse_headers src dst :
  fin_ph (ifun (g_parse_headers_body E (S (length src)) src) (g_parse_headers_init dst dst) (cur_new src))
  = parse_headers E src dst.
Proof.
  unfold g_parse_headers_body, g_parse_headers_init, parse_headers, ifun, ibind.
  destruct (icall_headers_spec E Efwd (R:=(nat * list slot)%type) (B:=unit) (length src) hcfg_default
              g_parse_headers_v_headers set_g_parse_headers_v_headers set_g_parse_headers_v_mem
              (mkL_g_parse_headers dst dst) (cur_new src)) as (c' & Hc).
  cbn [g_parse_headers_v_headers] in Hc. rewrite Hc.
  destruct (parse_headers_iter_uninit E (S (length src)) hcfg_default dst (cur_new src)) as [[[n| |e|f] nh] arr'];
    reflexivity.
Qed.

End ApiTie.
