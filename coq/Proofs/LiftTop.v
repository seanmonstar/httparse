(* LiftTop.v -- the four parsers at ADDRESS level.  `addr_request_core B W be cf buf rq arr` runs, on the buffer
   `buf` placed at address B, Bytes::new as translated from src/iter.rs, then the address-level program (Lift.cI) of
   parse_with_config_and_uninit_headers as translated from src/lib.rs: every cursor operation is the translated
   iter.rs method, every scanner the address-level program of the loop shell translated from src/simd/*.rs of the
   backend `be` with word size W, and every `*p`, `p.add(n)`, `p.sub(n)`, pointer subtraction, `from_raw_parts` and
   vector load a CHECKED step against [B, B + length buf) (Ptr.v).  Theorems: for every base address, word size > 0,
   backend, configuration, buffer, Request value and header array that run yields exactly the model's result
   (Api.request_core), so it is never a Fault: no checked pointer step leaves the caller's buffer.  Same for
   responses, parse_headers and parse_chunk_size. *)
From Coq Require Import List NArith Bool Arith.
From HV Require Import Cursor Scan Model Api Spec Ptr Imp ImpLib ImpGlue Backends.
From HV.Generated Require Import Iter Lib LibApi.
From HV.Proofs Require Import Base EnvOk Refine Entries BackendsOk Chunk Mono BackendsFwd
                               TieIter Lift LiftLib TieReq TieResp TiePH TieChunk SrcReq SrcResp SrcPH SrcChunk.
Import ListNotations.

Definition c0 : cur := cur_new [].
Definition q_to_i {L R Bk A} (r : qires L R Bk A) : ires L R Bk A :=
  match r with
  | QIDone a l _ => IDone a l c0
  | QIPart l => IPart l
  | QIFail e l => IFail e l
  | QIFault f l => IFault f l
  | QIExc x l _ => IExc x l c0
  end.
(* what q_to_i keeps of a cursor-level result *)
Definition forget {L R Bk A} (r : ires L R Bk A) : ires L R Bk A :=
  match r with
  | IDone a l _ => IDone a l c0
  | IExc x l _ => IExc x l c0
  | other => other
  end.

Lemma RI_forget B data L R Bk A (r : ires L R Bk A) (qr : qires L R Bk A) :
  RI B data r qr -> (forall f l, r <> IFault f l) -> q_to_i qr = forget r.
Proof. intros H NF. destruct H; try reflexivity. destruct (NF f l eq_refl). Qed.

(* the model never faults (Thm/C01.v states these four) *)
Lemma nf_request : forall E, env_ok E -> forall e cf buf arr rq f, bytes_ok buf ->
  fst (fst (request_call E e cf buf arr rq)) <> Faulted f.
Proof.
  intros E HE e cf buf arr rq f Hb. rewrite (request_call_ref E HE) by exact Hb.
  rewrite req_call_status. apply ref_request_no_fault.
Qed.
Lemma nf_response : forall E, env_ok E -> forall e cf buf arr rp f, bytes_ok buf ->
  fst (fst (response_call E e cf buf arr rp)) <> Faulted f.
Proof.
  intros E HE e cf buf arr rp f Hb. rewrite (response_call_ref E HE) by exact Hb.
  rewrite resp_call_status. apply ref_response_no_fault.
Qed.
Lemma nf_headers : forall E, env_ok E -> forall src dst f, bytes_ok src ->
  fst (fst (parse_headers E src dst)) <> Faulted f.
Proof.
  intros E HE src dst f Hb. rewrite (parse_headers_ref E HE) by exact Hb.
  pose proof (ref_headers_no_fault hcfg_default (length dst) 0 src f) as H.
  destruct (ref_headers hcfg_default (length dst) 0 src). exact H.
Qed.
Lemma nf_chunk : forall dbg buf f, fst (parse_chunk_size dbg buf) <> Faulted f.
Proof. intros. rewrite Chunk.chunk_ref_eq. apply ref_chunk_no_fault. Qed.

Lemma fin_reqw_forget r : fin_reqw (forget r) = fin_reqw r.
Proof. destruct r; reflexivity. Qed.
Lemma fin_respw_forget r : fin_respw (forget r) = fin_respw r.
Proof. destruct r; reflexivity. Qed.
Lemma fin_req_forget r : fin_req (forget r) = fin_req r.
Proof. destruct r; reflexivity. Qed.
Lemma fin_resp_forget r : fin_resp (forget r) = fin_resp r.
Proof. destruct r; reflexivity. Qed.
Lemma fin_ph_forget r : fin_ph (forget r) = fin_ph r.
Proof. destruct r as [[n hs] l c| | | |]; reflexivity. Qed.

Section Top.
Variable B : nat.
Variable W : nat.       (* size_of::<usize>() *)
Hypothesis HW : 0 < W.
Variable be : backend.
Let E := env_of W be.

(* Bytes::new(buf), then the address-level program *)
Definition start {X} (buf : list N) (k : pst -> X) (bad : fault -> X) : X :=
  match i_new (B, length buf) (mkpmem B buf) (mkpst 0 0 0) with
  | PDone _ s0 => k s0
  | PFault f => bad f
  end.
Lemma start_new X buf (k : pst -> X) bad : start buf k bad = k (pst_of B (cur_new buf)).
Proof. unfold start. destruct (tie_iter_new B buf) as [-> _]. reflexivity. Qed.

(* a translated entry point run from Bytes::new: the address-level run ends as the cursor-level one does *)
Lemma run_from_start buf L R Bk (p : I L R Bk R) (d : bI B buf L R Bk R p) l0 Y Z
    (fin : ires L R Bk R -> status * Y * Z) bad :
  (forall r, fin (forget r) = fin r) ->
  (forall f l, fst (fst (fin (IFault f l))) = Faulted f) ->
  (forall f, fst (fst (fin (ifun p l0 (cur_new buf)))) <> Faulted f) ->
  start buf (fun s0 => fin (q_to_i (qi_fun (cI B buf d) l0 s0))) bad = fin (ifun p l0 (cur_new buf)).
Proof.
  intros Hfin Hflt NF. rewrite start_new, <- (Hfin (ifun p l0 (cur_new buf))). f_equal.
  pose proof (proj2 (lift_sound B buf) _ _ _ _ _ d) as Sim.
  apply simI_fun in Sim. rewrite simI_iff in Sim.
  apply (RI_forget B buf).
  - apply Sim. exact (proj2 (tie_iter_new B buf)).
  - intros f l Hf. apply (NF f). rewrite Hf. apply Hflt.
Qed.

Definition addr_request_core (cf : config) (buf : list N) (rq : request) (arr : list slot) : rq_res :=
  let fuel := S (length buf) in
  let '(dU, dV, dN) := d_env_of B buf W be fuel in
  let l0 := g_request_core_init (q_method rq) (q_path rq) (q_version rq) (q_hdrs rq) arr arr in
  start buf (fun s0 => fin_req (q_to_i (qi_fun (cI B buf (d_request_core B buf E fuel dU dV dN cf buf)) l0 s0)))
            (fun f => (Faulted f, rq, arr)).

Definition addr_response_core (cf : config) (buf : list N) (rp : response) (arr : list slot) : rp_res :=
  let fuel := S (length buf) in
  let '(dU, dV, dN) := d_env_of B buf W be fuel in
  let l0 := g_response_core_init (p_version rp) (p_code rp) (p_reason rp) (p_hdrs rp) arr arr in
  start buf (fun s0 => fin_resp (q_to_i (qi_fun (cI B buf (d_response_core B buf E fuel dV dN cf buf)) l0 s0)))
            (fun f => (Faulted f, rp, arr)).

(* the initialised-array entry points: Request::parse_with_config / Response::parse_with_config as translated *)
Definition addr_request_with_config (cf : config) (buf : list N) (rq : request) : rq_res :=
  let fuel := S (length buf) in
  let '(dU, dV, dN) := d_env_of B buf W be fuel in
  let l0 := g_request_with_config_init (q_method rq) (q_path rq) (q_version rq) (q_hdrs rq) [] [] in
  start buf (fun s0 => fin_reqw (q_to_i (qi_fun (cI B buf (d_request_with_config B buf E fuel dU dV dN cf buf)) l0 s0)))
            (fun f => (Faulted f, rq, q_hdrs rq)).
Definition addr_response_with_config (cf : config) (buf : list N) (rp : response) : rp_res :=
  let fuel := S (length buf) in
  let '(dU, dV, dN) := d_env_of B buf W be fuel in
  let l0 := g_response_with_config_init (p_version rp) (p_code rp) (p_reason rp) (p_hdrs rp) [] [] in
  start buf (fun s0 => fin_respw (q_to_i (qi_fun (cI B buf (d_response_with_config B buf E fuel dV dN cf buf)) l0 s0)))
            (fun f => (Faulted f, rp, p_hdrs rp)).

Definition addr_parse_headers (src : list N) (dst : list slot) : status * list slot * list slot :=
  let fuel := S (length src) in
  let '(dU, dV, dN) := d_env_of B src W be fuel in
  start src (fun s0 => fin_ph (q_to_i (qi_fun (cI B src (d_parse_headers B src E fuel dV dN src))
                                              (g_parse_headers_init dst dst) s0)))
            (fun f => (Faulted f, [], dst)).

Definition addr_parse_chunk_size (dbg : bool) (buf : list N) : status * N :=
  start buf (fun s0 => match cP B buf (d_parse_chunk_size B buf (S (length buf)) dbg) s0 with
                       | QDone (n, size) _ => (Complete n, size)
                       | QPart => (Partial, 0%N)
                       | QFail e => (Error e, 0%N)
                       | QFault f => (Faulted f, 0%N)
                       end)
            (fun f => (Faulted f, 0%N)).

Lemma E_ok : env_ok E. Proof. apply env_of_ok. exact HW. Qed.
Lemma E_fwd : env_fwd E. Proof. apply backends_fwd. Qed.

Theorem addr_request_core_model cf buf rq arr : bytes_ok buf ->
  addr_request_core cf buf rq arr = request_core E cf buf rq arr.
Proof.
  intros Hb. pose proof (fun f => nf_request E E_ok EConfigUninit cf buf arr rq f Hb) as NF.
  cbn [request_call] in NF. rewrite <- (src_request_core_eq E E_fwd) in *.
  unfold addr_request_core, src_request_core in *.
  destruct (d_env_of B buf W be (S (length buf))) as [[dU dV] dN].
  apply run_from_start; [exact fin_req_forget | reflexivity | exact NF].
Qed.

Theorem addr_response_core_model cf buf rp arr : bytes_ok buf ->
  addr_response_core cf buf rp arr = response_core E cf buf rp arr.
Proof.
  intros Hb. pose proof (fun f => nf_response E E_ok EConfigUninit cf buf arr rp f Hb) as NF.
  cbn [response_call] in NF. rewrite <- (src_response_core_eq E E_fwd) in *.
  unfold addr_response_core, src_response_core in *.
  destruct (d_env_of B buf W be (S (length buf))) as [[dU dV] dN].
  apply run_from_start; [exact fin_resp_forget | reflexivity | exact NF].
Qed.

Theorem addr_request_with_config_model cf buf rq : bytes_ok buf ->
  addr_request_with_config cf buf rq = request_with_config E cf buf rq.
Proof.
  intros Hb. pose proof (fun f => nf_request E E_ok EConfig cf buf [] rq f Hb) as NF.
  cbn [request_call] in NF. rewrite <- (tie_request_with_config E E_fwd cf buf rq [] []) in *.
  unfold addr_request_with_config.
  destruct (d_env_of B buf W be (S (length buf))) as [[dU dV] dN].
  apply run_from_start; [exact fin_reqw_forget | reflexivity | exact NF].
Qed.

Theorem addr_response_with_config_model cf buf rp : bytes_ok buf ->
  addr_response_with_config cf buf rp = response_with_config E cf buf rp.
Proof.
  intros Hb. pose proof (fun f => nf_response E E_ok EConfig cf buf [] rp f Hb) as NF.
  cbn [response_call] in NF. rewrite <- (tie_response_with_config E E_fwd cf buf rp [] []) in *.
  unfold addr_response_with_config.
  destruct (d_env_of B buf W be (S (length buf))) as [[dU dV] dN].
  apply run_from_start; [exact fin_respw_forget | reflexivity | exact NF].
Qed.

Theorem addr_parse_headers_model src dst : bytes_ok src ->
  addr_parse_headers src dst = parse_headers E src dst.
Proof.
  intros Hb. pose proof (fun f => nf_headers E E_ok src dst f Hb) as NF.
  rewrite <- (src_parse_headers_eq E E_fwd) in *. unfold addr_parse_headers, src_parse_headers in *.
  destruct (d_env_of B src W be (S (length src))) as [[dU dV] dN].
  apply run_from_start; [exact fin_ph_forget | reflexivity | exact NF].
Qed.

End Top.

Theorem addr_parse_chunk_size_model B dbg buf :
  addr_parse_chunk_size B dbg buf = parse_chunk_size dbg buf.
Proof.
  pose proof (nf_chunk dbg buf) as NF. rewrite <- src_parse_chunk_size_eq in *.
  unfold addr_parse_chunk_size, src_parse_chunk_size in *. rewrite start_new.
  pose proof (proj1 (lift_sound B buf) _ _ (d_parse_chunk_size B buf (S (length buf)) dbg)) as Sim.
  rewrite simP_iff in Sim. specialize (Sim (cur_new buf) (proj2 (tie_iter_new B buf))).
  revert NF. destruct Sim as [[n size] c' _| | |f f']; intros NF; try reflexivity.
  destruct (NF f eq_refl).
Qed.
