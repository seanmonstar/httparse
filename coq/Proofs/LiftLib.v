(* LiftLib.v -- syntax trees (Lift.bP / Lift.bI) for every function translated from src/lib.rs
   (Generated/Lib.v, LibApi.v), built by ONE tactic that only follows the shape of the generated term:
   bind / ret / the primitive cursor operations / locals / loops / exceptions / guards / calls, `if`, `match`
   and `let` by case analysis.  Nothing in this file depends on what a function computes, so an edit of
   lib.rs that stays inside the translated fragment needs no change here.

   With Lift.lift_sound each tree gives the ADDRESS-LEVEL program of the function (every cursor operation
   replaced by the method translated from src/iter.rs) together with the proof that it runs in lock step
   with the cursor-level one, for every base address, buffer and position. *)
From Coq Require Import List NArith Bool Arith.
From HV Require Import Cursor Scan Model Api Ptr Imp ImpLib ImpGlue.
From HV Require Import Backends.
From HV.Generated Require Import Iter Lib LibApi Loops Cfg.
From HV.Proofs Require Import TieIter Lift TieLoops.
Import ListNotations.

(* the trees of the functions that later ones call, each entered when it has been built *)
Create HintDb lift discriminated.

Ltac lift1 :=
  lazymatch goal with
  | |- bI _ _ _ _ _ _ (if ?b then _ else _) => destruct b
  | |- bI _ _ _ _ _ _ (match ?x with _ => _ end) => destruct x
  | |- bP _ _ _ (if ?b then _ else _) => destruct b
  | |- bP _ _ _ (match ?x with _ => _ end) => destruct x
  | |- bI _ _ _ _ _ _ (ibind _ _) => apply bI_bind; [|intro]
  | |- bI _ _ _ _ _ _ (iret _) => apply bI_ret
  | |- bI _ _ _ _ _ _ (ilift _) => apply bI_lift
  | |- bI _ _ _ _ _ _ iget => apply bI_get
  | |- bI _ _ _ _ _ _ (iset _) => apply bI_set
  | |- bI _ _ _ _ _ _ ipart => apply bI_part
  | |- bI _ _ _ _ _ _ (ifail _) => apply bI_fail
  | |- bI _ _ _ _ _ _ (ifault _) => apply bI_fault
  | |- bI _ _ _ _ _ _ (ithrow _) => apply bI_throw
  | |- bI _ _ _ _ _ _ (iguard _) => apply bI_guard
  | |- bI _ _ _ _ _ _ (iguard_idx _) => apply bI_guard_idx
  | |- bI _ _ _ _ _ _ (ireturn _) => apply bI_return
  | |- bI _ _ _ _ _ _ (iloop _ _ _) => apply bI_loop
  | |- bI _ _ _ _ _ _ (ifun _) => apply bI_fun
  | |- bI _ _ _ _ _ _ (isub _ _ _) => apply bI_sub
  | |- bI _ _ _ _ _ _ (isub_catch _ _ _) => apply bI_sub_catch
  | |- bP _ _ _ (bind _ _) => apply bP_bind; [|intro]
  | |- bP _ _ _ (ret _) => apply bP_ret
  | |- bP _ _ _ peek => apply bP_peek
  | |- bP _ _ _ next_opt => apply bP_next_opt
  | |- bP _ _ _ (advance _) => apply bP_advance
  | |- bP _ _ _ bump => apply bP_bump
  | |- bP _ _ _ pos => apply bP_pos
  | |- bP _ _ _ addr => apply bP_addr
  | |- bP _ _ _ remaining => apply bP_remaining
  | |- bP _ _ _ (peek_ahead _) => apply bP_peek_ahead
  | |- bP _ _ _ slice => apply bP_slice
  | |- bP _ _ _ (slice_skip _) => apply bP_slice_skip
  | |- bP _ _ _ (peek_n _) => apply bP_peek_n
  | |- bP _ _ _ rest_bytes => apply bP_rest_bytes
  | |- bP _ _ _ (load_block _) => apply bP_load_block
  | |- bP _ _ _ (irun _ _) => apply bP_irun
  | |- bP _ _ _ _ => first [assumption | solve [auto 1 with lift nocore]]
  | |- bI _ _ _ _ _ _ _ => first [assumption | solve [auto 1 with lift nocore]]
  end.
Ltac lift := cbv zeta; repeat (lift1; cbv zeta).

Section Trees.
Variable B : nat.
Variable data : list N.
Variable E : env.
Variable fuel : nat.
(* the three scanners of the environment come with address-level implementations (section Loops below
   provides them for the translated loop shells) *)
Variable dU : bP B data unit (s_uri E fuel).
Variable dV : bP B data unit (s_value E fuel).
Variable dN : bP B data unit (s_name E fuel).

Definition d_skip_empty_lines : bP B data _ (g_skip_empty_lines fuel).
Proof. unfold g_skip_empty_lines, g_skip_empty_lines_body. lift. Defined.
#[local] Hint Resolve d_skip_empty_lines : lift.
Definition d_skip_spaces : bP B data _ (g_skip_spaces fuel).
Proof. unfold g_skip_spaces, g_skip_spaces_body. lift. Defined.
#[local] Hint Resolve d_skip_spaces : lift.
Definition d_parse_version : bP B data _ g_parse_version.
Proof. unfold g_parse_version, g_parse_version_body. lift. Defined.
#[local] Hint Resolve d_parse_version : lift.
Definition d_parse_token : bP B data _ (g_parse_token E fuel).
Proof. unfold g_parse_token, g_parse_token_body. lift. Defined.
#[local] Hint Resolve d_parse_token : lift.
Definition d_parse_method : bP B data _ (g_parse_method E fuel).
Proof. unfold g_parse_method, g_parse_method_body. lift. Defined.
#[local] Hint Resolve d_parse_method : lift.
Definition d_parse_uri : bP B data _ (g_parse_uri E fuel).
Proof. unfold g_parse_uri, g_parse_uri_body. lift. Defined.
#[local] Hint Resolve d_parse_uri : lift.
Definition d_parse_code : bP B data _ g_parse_code.
Proof. unfold g_parse_code, g_parse_code_body. lift. Defined.
#[local] Hint Resolve d_parse_code : lift.
Definition d_parse_reason : bP B data _ (g_parse_reason fuel).
Proof. unfold g_parse_reason, g_parse_reason_body. lift. Defined.
#[local] Hint Resolve d_parse_reason : lift.
Definition d_parse_chunk_size dbg : bP B data _ (g_parse_chunk_size dbg fuel).
Proof. unfold g_parse_chunk_size, g_parse_chunk_size_body. lift. Defined.
Definition d_headers_body hc : bI B data _ _ _ _ (g_headers_body E fuel hc).
Proof. unfold g_headers_body. lift. Defined.
#[local] Hint Resolve d_headers_body : lift.

Definition d_request_core cf buf : bI B data _ _ _ _ (g_request_core_body E fuel cf buf).
Proof. unfold g_request_core_body, icall_headers. lift. Defined.
#[local] Hint Resolve d_request_core : lift.
Definition d_response_core cf buf : bI B data _ _ _ _ (g_response_core_body E fuel cf buf).
Proof. unfold g_response_core_body, icall_headers. lift. Defined.
#[local] Hint Resolve d_response_core : lift.
Definition d_request_with_config cf buf : bI B data _ _ _ _ (g_request_with_config_body E fuel cf buf).
Proof. unfold g_request_with_config_body. lift. Defined.
Definition d_response_with_config cf buf : bI B data _ _ _ _ (g_response_with_config_body E fuel cf buf).
Proof. unfold g_response_with_config_body. lift. Defined.
Definition d_parse_headers src : bI B data _ _ _ _ (g_parse_headers_body E fuel src).
Proof. unfold g_parse_headers_body, icall_headers. lift. Defined.

End Trees.

(* the scanner loop shells translated from src/simd/*.rs (Generated/Loops.v), hence the scanners of
   every concrete environment (Backends.env_of), by the equalities of TieLoops.v *)
Section Loops.
Variable B : nat.
Variable data : list N.

Definition d_gl_swar_uri W fuel : bP B data _ (gl_swar_uri W fuel).
Proof. unfold gl_swar_uri, gl_swar_uri_body. lift. Defined.
Definition d_gl_swar_value W fuel : bP B data _ (gl_swar_value W fuel).
Proof. unfold gl_swar_value, gl_swar_value_body. lift. Defined.
Definition d_gl_swar_name W fuel : bP B data _ (gl_swar_name W fuel).
Proof. unfold gl_swar_name, gl_swar_name_body. lift. Defined.
Definition d_gl_sse42_uri fb fuel (dfb : bP B data unit fb) : bP B data _ (gl_sse42_uri fb fuel).
Proof. unfold gl_sse42_uri, gl_sse42_uri_body. lift. Defined.
Definition d_gl_sse42_value fb fuel (dfb : bP B data unit fb) : bP B data _ (gl_sse42_value fb fuel).
Proof. unfold gl_sse42_value, gl_sse42_value_body. lift. Defined.
Definition d_gl_avx2_uri fb fuel (dfb : bP B data unit fb) : bP B data _ (gl_avx2_uri fb fuel).
Proof. unfold gl_avx2_uri, gl_avx2_uri_body. lift. Defined.
Definition d_gl_avx2_value fb fuel (dfb : bP B data unit fb) : bP B data _ (gl_avx2_value fb fuel).
Proof. unfold gl_avx2_value, gl_avx2_value_body. lift. Defined.
Definition d_gl_neon_uri fb fuel (dfb : bP B data unit fb) : bP B data _ (gl_neon_uri fb fuel).
Proof. unfold gl_neon_uri, gl_neon_uri_body. lift. Defined.
Definition d_gl_neon_value fb fuel (dfb : bP B data unit fb) : bP B data _ (gl_neon_value fb fuel).
Proof. unfold gl_neon_value, gl_neon_value_body. lift. Defined.
Definition d_gl_neon_name fb fuel (dfb : bP B data unit fb) : bP B data _ (gl_neon_name fb fuel).
Proof. unfold gl_neon_name, gl_neon_name_body. lift. Defined.

Definition d_swar_uri W fuel : bP B data _ (swar_uri W fuel) :=
  bP_eq B data _ _ _ (tie_swar_uri W fuel) (d_gl_swar_uri W fuel).
Definition d_swar_value W fuel : bP B data _ (swar_value W fuel) :=
  bP_eq B data _ _ _ (tie_swar_value W fuel) (d_gl_swar_value W fuel).
Definition d_swar_name W fuel : bP B data _ (swar_name W fuel) :=
  bP_eq B data _ _ _ (tie_swar_name W fuel) (d_gl_swar_name W fuel).

Definition d_env (E : env) (fuel : nat) : Type :=
  (bP B data unit (s_uri E fuel) * bP B data unit (s_value E fuel) * bP B data unit (s_name E fuel))%type.

Definition d_env_swar W fuel : d_env (env_swar W) fuel :=
  (d_swar_uri W fuel, d_swar_value W fuel, d_swar_name W fuel).
Definition d_env_sse42 W fuel : d_env (env_sse42 W) fuel :=
  (bP_eq B data _ _ _ (tie_sse42_uri _ fuel) (d_gl_sse42_uri _ fuel (d_swar_uri W fuel)),
   bP_eq B data _ _ _ (tie_sse42_value _ fuel) (d_gl_sse42_value _ fuel (d_swar_value W fuel)),
   d_swar_name W fuel).
Definition d_env_avx2 W fuel : d_env (env_avx2 W) fuel :=
  (bP_eq B data _ _ _ (tie_avx2_uri _ fuel) (d_gl_avx2_uri _ fuel (d_swar_uri W fuel)),
   bP_eq B data _ _ _ (tie_avx2_value _ fuel) (d_gl_avx2_value _ fuel (d_swar_value W fuel)),
   d_swar_name W fuel).
Definition d_env_neon W fuel : d_env (env_neon W) fuel :=
  (bP_eq B data _ _ _ (tie_neon_uri _ fuel) (d_gl_neon_uri _ fuel (d_swar_uri W fuel)),
   bP_eq B data _ _ _ (tie_neon_value _ fuel) (d_gl_neon_value _ fuel (d_swar_value W fuel)),
   bP_eq B data _ _ _ (tie_neon_name _ fuel) (d_gl_neon_name _ fuel (d_swar_name W fuel))).
Definition d_env_of W be fuel : d_env (env_of W be) fuel.
Proof.
  destruct be as [| | | |id]; cbn [env_of];
    [apply d_env_swar | apply d_env_sse42 | apply d_env_avx2 | apply d_env_neon|].
  unfold env_runtime. destruct (N.eqb id RT_AVX2); [apply d_env_avx2|].
  destruct (N.eqb id RT_SSE42); [apply d_env_sse42|apply d_env_swar].
Defined.

End Loops.
