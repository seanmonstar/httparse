(* Proofs/Complete.v -- honest Partial (C11): whenever a reference parser answers Partial there is
   an explicit continuation on which it answers Complete -- or runs into one of the two deferred
   checks: header capacity (TooManyHeaders when the surplus header line completes) and UTF-8
   validity of the request target (Token at its terminating SP). *)
From Coq Require Import List NArith PeanoNat Lia Bool.
From HV Require Import Cursor Model Api Spec.
From HV.Proofs Require Import Base RefInd RefFacts Entries Stable ErrKinds.
From HV.Proofs Require Chunk.
Import ListNotations.

Notation CRLF := [13%N; 10%N].

(* the continuations are built from closed lists, whose bytes are checked by evaluation *)
Lemma bytes_ok_eval l : forallb (fun b => N.ltb b 256) l = true -> bytes_ok l.
Proof.
  intros H. apply Forall_forall. intros b Hb. apply N.ltb_lt. exact (proj1 (forallb_forall _ l) H b Hb).
Qed.
Ltac closed_bytes := apply bytes_ok_eval; reflexivity.

Lemma eol_at_finish off l : eol_at off l = EolPart ->
  exists t, bytes_ok t /\ exists o, eol_at off (l ++ t) = EolOk o [].
Proof.
  intros E. destruct (eol_at_part _ _ E) as [->| ->].
  - exists CRLF. split; [closed_bytes|eexists; reflexivity].
  - exists [10%N]. split; [closed_bytes|eexists; reflexivity].
Qed.

Section HdrComplete.
Variable hc : hcfg.

Lemma ref_invalid_complete ign e off l R :
  ref_invalid ign e off l = RPart -> exists o, ref_invalid ign e off (l ++ 10%N :: R) = ROk LSkip o R.
Proof.
  destruct ign; [|discriminate]. rewrite !ref_invalid_eq.
  destruct (span_viewP junk_byte l) as [junk b r1 Hs|_ Hs]; rewrite Hs by reflexivity.
  - unfold on_eol, eol_at. destruct (is 13 b); [|destruct (is 10 b); discriminate].
    destruct r1 as [|b2 r2]; [|destruct (is 10 b2); discriminate]. intros _. eexists. reflexivity.
  - intros _. eexists. reflexivity.
Qed.

Lemma vpart_eol l : vpart hc l -> exists t, bytes_ok t /\ is_eol (l ++ t).
Proof.
  intros [->|[->|[_ He]]].
  - exists CRLF. split; [closed_bytes|right; reflexivity].
  - exists [10%N]. split; [closed_bytes|right; reflexivity].
  - exists []. rewrite app_nil_r. split; [apply Forall_nil|exact He].
Qed.
Lemma vstop_crlf : vstop hc CRLF.
Proof. right. exists 13%N, [10%N]. split; reflexivity. Qed.
Lemma vinvalid_complete off l : vinvalid hc off l = RPart ->
  exists x o, vinvalid hc off (l ++ [10%N] ++ CRLF) = ROk x o CRLF.
Proof.
  unfold vinvalid. intros H.
  destruct (ref_invalid (ignore_invalid_headers hc) HeaderValue off l) eqn:Ei; try discriminate.
  destruct (ref_invalid_complete _ _ _ _ CRLF Ei) as [o Ho].
  cbn [app]. rewrite Ho. eexists; eexists; reflexivity.
Qed.

Lemma ref_value_lines_complete voff : forall racc off l,
  ref_value_lines hc voff racc off l = RPart ->
  exists t, bytes_ok t /\ exists x o, ref_value_lines hc voff racc off (l ++ t ++ CRLF) = ROk x o CRLF.
Proof.
  intros racc off l. pattern (ref_value_lines hc voff racc off l) at 1. revert racc off l.
  apply ref_value_lines_ind; try discriminate.
  - intros racc off l Hl _. destruct (vpart_eol l Hl) as [t [Hbt He]]. exists t. split; [exact Hbt|].
    rewrite app_assoc, (rvl_stop hc _ _ _ _ _ He vstop_crlf). eexists; eexists; reflexivity.
  - intros racc off b r x Ev IH Hx. destruct (IH Hx) as [t [Hbt Ht]]. exists t. split; [exact Hbt|].
    cbn [app]. rewrite rvl_char by exact Ev. exact Ht.
  - intros racc off e b r x He Hf Hw IH Hx. destruct (IH Hx) as [t [Hbt Ht]]. exists t. split; [exact Hbt|].
    rewrite <- app_assoc. cbn [app]. rewrite rvl_fold by assumption. exact Ht.
  - intros racc off b r Ev E13 E10 Hx. exists [10%N]. split; [closed_bytes|].
    cbn [app]. rewrite rvl_bad by assumption. exact (vinvalid_complete off (b :: r) Hx).
Qed.

Lemma ref_value_start_complete : forall off l,
  ref_value_start hc off l = RPart ->
  exists t, bytes_ok t /\ exists x o, ref_value_start hc off (l ++ t ++ CRLF) = ROk x o CRLF.
Proof.
  intros off l. pattern (ref_value_start hc off l) at 1. revert off l.
  apply ref_value_start_ind; try discriminate.
  - (* input ends *)
    intros off l Hl _. destruct (vpart_eol l Hl) as [t [Hbt He]]. exists t. split; [exact Hbt|].
    rewrite app_assoc, (rvs_stop hc _ _ _ He vstop_crlf). eexists; eexists; reflexivity.
  - (* whitespace *)
    intros off b r x Ew IH Hx. destruct (IH Hx) as [t [Hbt Ht]]. exists t. split; [exact Hbt|].
    cbn [app]. rewrite rvs_ws by exact Ew. exact Ht.
  - (* value begins *)
    intros off b r Ev Ew Hx. destruct (ref_value_lines_complete _ _ _ _ Hx) as [t [Hbt Ht]].
    exists t. split; [exact Hbt|]. cbn [app]. rewrite rvs_value by assumption. exact Ht.
  - (* fold *)
    intros off e b r x He Hf Hw IH Hx. destruct (IH Hx) as [t [Hbt Ht]]. exists t. split; [exact Hbt|].
    rewrite <- app_assoc. cbn [app]. rewrite rvs_fold by assumption. exact Ht.
  - (* dropped line *)
    intros off b r Ev E13 E10 Hx. exists [10%N]. split; [closed_bytes|].
    cbn [app]. rewrite rvs_bad by assumption. exact (vinvalid_complete off (b :: r) Hx).
Qed.

Definition finishes (F : list N -> rres rline) (l : list N) : Prop :=
  exists t, bytes_ok t /\ exists x o, x <> LEnd /\ F (l ++ t ++ CRLF) = ROk x o CRLF.

Lemma finishes_via F G l pre v :
  bytes_ok pre -> finishes G v -> (forall e, F (l ++ pre ++ e) = G (v ++ e)) -> finishes F l.
Proof.
  intros Hb [t [Hbt [x [o [Hx Ht]]]]] HF. exists (pre ++ t).
  split; [apply bytes_ok_app; split; assumption|].
  exists x, o. split; [exact Hx|].
  rewrite <- app_assoc, HF. exact Ht.
Qed.

Lemma ref_value_complete name off l : ref_value hc name off l = RPart -> finishes (ref_value hc name off) l.
Proof.
  unfold ref_value. intros H.
  destruct (ref_value_start hc off l) as [v o r| |e] eqn:Es; cbn [rbind] in H; try discriminate.
  destruct (ref_value_start_complete _ _ Es) as [t [Hbt [x [o Ht]]]].
  exists t. split; [exact Hbt|]. rewrite Ht. cbn [rbind].
  eexists; exists o. split; [|reflexivity].
  destruct (dropped x); discriminate.
Qed.
Lemma ref_invalid_finishes ign e off l : ref_invalid ign e off l = RPart -> finishes (ref_invalid ign e off) l.
Proof.
  intros H. destruct (ref_invalid_complete _ _ _ _ CRLF H) as [o Ho].
  exists [10%N]. split; [closed_bytes|]. exists LSkip, o. split; [discriminate|exact Ho].
Qed.

Lemma ref_header_line_complete first off l :
  ref_header_line hc first off l = RPart ->
  exists t, bytes_ok t /\
           ((exists o, ref_header_line hc first off (l ++ t) = ROk LEnd o []) \/
            (exists x o, x <> LEnd /\ ref_header_line hc first off (l ++ t ++ CRLF) = ROk x o CRLF)).
Proof.
  rewrite ref_header_line_eq. unfold on_eol. destruct (eol_at off l) eqn:Ee; try discriminate.
  { intros _. destruct (eol_at_finish _ _ Ee) as [t [Hbt [o Ht]]]. exists t. split; [exact Hbt|]. left.
    rewrite ref_header_line_eq. unfold on_eol. rewrite Ht. eexists. reflexivity. }
  intros H. enough (finishes (ref_header_line hc first off) l) as [t [Hbt Ht]] by (exists t; auto).
  (* not at a line end: what the line is on any extension of l *)
  pose proof (fun e => eq_trans (ref_header_line_eq hc first off (l ++ e)) (on_eol_none off l e _ _ _ Ee)) as Hl.
  destruct l as [|b r]; [discriminate|]. cbn [app] in Hl. revert H Hl.
  destruct (negb (tchar b)).
  { destruct (allow_space_before_first_header_name hc && first && ws b).
    - destruct (span ws (b :: r)); discriminate.
    - intros H Hl. exact (finishes_via _ _ _ [] _ (Forall_nil _) (ref_invalid_finishes _ _ _ _ H) Hl). }
  destruct (span_viewP tchar (b :: r)) as [name c r2 Hs|_ Hs]; cbn [app] in Hs.
  2:{ (* the name reaches the end of the input: a colon, then the value; no blanks in between,
         whence `length []` in the offset of the value *)
    intros _ Hl.
    apply (finishes_via _ _ _ [58%N] [] (bytes_ok_eval [58%N] eq_refl)
             (ref_value_complete (Sub off (b :: r)) (S (length (@nil N) + (length (b :: r) + off))) [] eq_refl)).
    intros e. cbn [app]. rewrite Hl, Hs by reflexivity.
    destruct (allow_spaces_after_header_name hc); reflexivity. }
  destruct (if allow_spaces_after_header_name hc then span ws (c :: r2) else ([], c :: r2)) as [w r3] eqn:Ew.
  destruct r3 as [|c' r4].
  { (* so do the blanks after the name *)
    intros _ Hl. pose proof (opt_span_end _ _ _ _ 58%N Ew eq_refl) as Hw. cbn [app] in Hw.
    apply (finishes_via _ _ _ [58%N] [] (bytes_ok_eval [58%N] eq_refl)
             (ref_value_complete (Sub off name) (S (length w + (length name + off))) [] eq_refl)).
    intros e. cbn [app]. rewrite Hl, Hs. cbv iota. rewrite Hw. reflexivity. }
  pose proof (fun e => opt_span_ext _ _ _ _ _ _ e Ew) as Hw. cbn [app] in Hw.
  (* past the blanks: the value after a colon, a dropped line otherwise *)
  destruct (is 58 c') eqn:E58; intros H Hl.
  - apply (finishes_via _ _ _ [] _ (Forall_nil _) (ref_value_complete _ _ _ H)).
    intros e. cbn [app]. rewrite Hl, Hs. cbv iota. rewrite Hw, E58. reflexivity.
  - apply (finishes_via _ _ _ [] _ (Forall_nil _) (ref_invalid_finishes _ _ _ _ H)).
    intros e. cbn [app]. rewrite Hl, Hs. cbv iota. rewrite Hw, E58. reflexivity.
Qed.
End HdrComplete.

Definition good (st : status) : Prop := (exists n, st = Complete n) \/ st = Error TooManyHeaders.

Definition block_completes hc cap hs off l : Prop :=
  exists t, bytes_ok t /\ forall f, length (l ++ t) < f -> good (fst (ref_header_block hc f cap hs off (l ++ t))).

Lemma block_line_crlf hc f cap hs off l x o : 1 < f ->
  ref_header_line hc (null hs) off l = ROk x o CRLF -> good (fst (ref_header_block hc f cap hs off l)).
Proof.
  destruct f as [|[|f]]; [lia|lia|]. intros _ H. rewrite ref_header_block_S, H. cbn [block_step].
  destruct x as [| |n v]; [| |destruct (Nat.ltb (length hs) cap)].
  - left. eexists. reflexivity.
  - left. eexists. reflexivity.
  - left. eexists. reflexivity.
  - right. reflexivity.
Qed.

(* One more line in front of r: the continuation found for r serves l as well, because the line
   reads the same on l ++ t (Stable.v) -- unless r is empty, where a line of skipped blanks may
   still grow. *)
Lemma block_step_complete hc cap hs off l x o r :
  ref_header_line hc (null hs) off l = ROk x o r ->
  (forall n v, x = LHeader n v -> length hs < cap) ->
  (r <> [] -> block_completes hc cap (match x with LHeader n v => hs ++ [(n, v)] | _ => hs end) o r) ->
  block_completes hc cap hs off l.
Proof.
  intros El Hc IH.
  pose proof (ref_header_line_adv hc (null hs) off l) as Hadv. rewrite El in Hadv.
  destruct Hadv as [k (Hk0 & Hk & -> & ->)].
  destruct (skipn k l) as [|c0 r0] eqn:Er.
  - (* the line ends exactly at the end of the input: the empty line finishes the block *)
    exists CRLF. split; [closed_bytes|]. intros f Hf.
    pose proof (ref_header_line_stable CRLF hc (null hs) off l) as Hs. rewrite El in Hs.
    apply block_line_crlf with x (k + off); [rewrite app_length in Hf; cbn [length] in Hf; lia|].
    destruct Hs as [(_ & _ & Hs)|Hs]; [apply Hs; reflexivity|exact Hs].
  - destruct (IH ltac:(discriminate)) as [t [Hbt Ht]]. exists t. split; [exact Hbt|].
    intros f Hf. destruct f as [|f]; [lia|].
    pose proof (ref_header_line_stable t hc (null hs) off l) as Hs. rewrite El in Hs.
    destruct Hs as [(_ & [=] & _)|Hs].
    assert (Hf' : length ((c0 :: r0) ++ t) < f).
    { rewrite app_length, <- Er, skipn_length. rewrite app_length in Hf. lia. }
    rewrite ref_header_block_S, Hs. destruct x as [| |n v]; cbn [block_step].
    + left. eexists. reflexivity.
    + exact (Ht f Hf').
    + rewrite (proj2 (Nat.ltb_lt _ _) (Hc n v eq_refl)). exact (Ht f Hf').
Qed.

Lemma ref_header_block_complete hc cap : forall f hs off l,
  fst (ref_header_block hc f cap hs off l) = Partial -> block_completes hc cap hs off l.
Proof.
  apply (ref_header_block_ind hc cap (fun _ hs off l res => fst res = Partial -> block_completes hc cap hs off l));
    try discriminate.
  - intros _ hs off l H _. destruct (ref_header_line_complete hc _ _ _ H) as [t [Hbt [[o Ho]|[x [o [_ Ho]]]]]].
    + exists t. split; [exact Hbt|]. intros [|f] Hf; [lia|].
      rewrite ref_header_block_S, Ho. left. eexists. reflexivity.
    + exists (t ++ CRLF). split; [apply bytes_ok_app; split; [exact Hbt|closed_bytes]|]. intros f Hf.
      apply block_line_crlf with x o; [rewrite !app_length in Hf; cbn [length] in Hf; lia|exact Ho].
  - intros _ hs off l o r res El IH Hp. apply (block_step_complete _ _ _ _ _ _ _ _ El); [discriminate|].
    intros _. exact (IH Hp).
  - intros _ hs off l n v o r res El Hlt IH Hp. apply (block_step_complete _ _ _ _ _ _ _ _ El).
    + intros ? ? _. exact Hlt.
    + intros _. exact (IH Hp).
Qed.

Theorem ref_headers_complete hc cap off l hs :
  ref_headers hc cap off l = (Partial, hs) ->
  exists t, bytes_ok t /\ good (fst (ref_headers hc cap off (l ++ t))).
Proof.
  unfold ref_headers. intros H.
  destruct (ref_header_block_complete hc cap _ _ _ _ (f_equal fst H)) as [t [Hbt Ht]].
  exists t. split; [exact Hbt|]. apply Ht. lia.
Qed.

(* the buffer ends in a run of target bytes that is not valid UTF-8: the deferred check *)
Definition bad_target (l : list N) : Prop :=
  exists pre t, l = pre ++ t /\ t <> [] /\ snd (span uri_char t) = [] /\ utf8_valid t = false.

Definition okx (X : Prop) (x : rres unit) : Prop :=
  (exists o r, x = ROk tt o r) \/ x = RErr TooManyHeaders \/ (x = RErr Token /\ X).

Definition Comp (K : nat -> list N -> rres unit) : Prop :=
  forall off l, K off l = RPart -> exists ext, bytes_ok ext /\ okx (bad_target l) (K off (l ++ ext)).

Lemma bad_target_suffix k l : bad_target (skipn k l) -> bad_target l.
Proof.
  intros [pre [t (E & H)]]. exists (firstn k l ++ pre), t. split; [|exact H].
  rewrite <- app_assoc, <- E. symmetry. apply firstn_skipn.
Qed.

Lemma okx_mono (X Y : Prop) x : (X -> Y) -> okx X x -> okx Y x.
Proof. intros H [H1|[H1|[H1 H2]]]; [left|right; left|right; right]; auto. Qed.

Lemma comp_bind {A} (s : nat -> list N -> rres A) (g : A -> nat -> list N -> rres unit) :
  (forall ext off l, extends ext (s off l) (s off (l ++ ext))) ->
  (forall off l, advances0 off l (s off l)) ->
  (forall a, Comp (g a)) ->
  (forall off l, s off l = RPart -> exists ext, bytes_ok ext /\ okx (bad_target l) (rbind (s off (l ++ ext)) g)) ->
  Comp (fun off l => rbind (s off l) g).
Proof.
  intros Hst Hadv Hg Hs off l H. specialize (Hadv off l).
  destruct (s off l) as [a o r| |e] eqn:E; cbn [rbind] in H.
  - destruct (Hg a o r H) as [ext [Hbe Hok]]. exists ext. split; [exact Hbe|].
    specialize (Hst ext off l). rewrite E in Hst. cbn [extends] in Hst.
    rewrite Hst. cbn [rbind]. eapply okx_mono; [|exact Hok].
    destruct Hadv as [k (_ & _ & ->)]. apply bad_target_suffix.
  - apply Hs. exact E.
  - discriminate.
Qed.

(* What comp_bind asks of a stage.  A stage that answered RPart is finished by some bytes t; the
   stages that read up to a delimiter of their own then succeed whatever follows, the two that
   skip a run (spaces, empty lines) need the next byte c to be outside the run (ok c).  Only the
   target can fail instead, on the deferred UTF-8 check. *)
Definition stage {A} (ok : N -> bool) (s : nat -> list N -> rres A) : Prop :=
  (forall ext off l, extends ext (s off l) (s off (l ++ ext))) /\
  (forall off l, advances0 off l (s off l)) /\
  forall off l, s off l = RPart -> exists t, bytes_ok t /\ forall c R, ok c = true ->
    (exists a o, s off (l ++ t ++ c :: R) = ROk a o (c :: R)) \/
    (s off (l ++ t ++ c :: R) = RErr Token /\ bad_target l).

Lemma comp_seq {A} ok (s : nat -> list N -> rres A) K tail :
  stage ok s -> match tail with c :: _ => ok c = true | [] => False end -> bytes_ok tail ->
  (forall o, exists o', K o tail = ROk tt o' []) -> Comp K ->
  Comp (fun off l => rbind (s off l) (fun _ => K)).
Proof.
  intros (Hst & Hadv & Hf) Hc Hb Hs HK. destruct tail as [|c tl]; [contradiction|].
  apply comp_bind; auto. intros off l H.
  destruct (Hf off l H) as [t [Hbt Ht]]. exists (t ++ c :: tl). split; [apply bytes_ok_app; auto|].
  destruct (Ht c tl Hc) as [[a [o E]]|[E Hbad]]; rewrite E; cbn [rbind].
  - left. destruct (Hs o) as [o' ->]. eauto.
  - right; right; auto.
Qed.

(* a stage that ends at a delimiter of its own: finished exactly at the end of l ++ t *)
Lemma stage_exact {A} (s : nat -> list N -> rres A) :
  (forall ext off l, extends ext (s off l) (s off (l ++ ext))) ->
  (forall off l, advances0 off l (s off l)) ->
  (forall off l, s off l = RPart -> exists t, bytes_ok t /\
     ((exists a o, s off (l ++ t) = ROk a o []) \/ (s off (l ++ t) = RErr Token /\ bad_target l))) ->
  stage (fun _ => true) s.
Proof.
  intros Hst Hadv H. split; [exact Hst|split; [exact Hadv|]]. intros off l Hp.
  destruct (H off l Hp) as [t [Hbt Ht]]. exists t. split; [exact Hbt|]. intros c R _.
  specialize (Hst (c :: R) off (l ++ t)). rewrite <- app_assoc in Hst.
  destruct Ht as [[a [o E]]|[E Hb]]; rewrite E in Hst; cbn [extends app] in Hst; eauto.
Qed.

Lemma finish_with {A} (s : nat -> list N -> rres A) t off l a o (X : Prop) :
  bytes_ok t -> s off (l ++ t) = ROk a o [] ->
  exists t, bytes_ok t /\ ((exists a o, s off (l ++ t) = ROk a o []) \/ (s off (l ++ t) = RErr Token /\ X)).
Proof. intros Hb E. exists t. split; [exact Hb|]. left. exists a, o. exact E. Qed.

Definition st_res (st : status) : rres unit :=
  match st with Complete n => ROk tt n [] | Partial => RPart | Error e => RErr e | Faulted _ => RPart end.

Definition K5 hc cap : nat -> list N -> rres unit := fun o l => st_res (fst (ref_headers hc cap o l)).

Lemma K5_comp hc cap : Comp (K5 hc cap).
Proof.
  intros off l H. unfold K5 in *. destruct (ref_headers hc cap off l) as [st hs] eqn:E. cbn [fst] in H.
  destruct st; try discriminate.
  - destruct (ref_headers_complete _ _ _ _ _ E) as [t [Hbt [[n Hn]|Ht]]]; exists t; (split; [exact Hbt|]).
    + left. rewrite Hn. eexists; eexists; reflexivity.
    + right; left. rewrite Ht. reflexivity.
  - exfalso. eapply (ref_headers_no_fault hc cap off l). rewrite E. reflexivity.
Qed.

Notation TAIL2 := [13%N; 10%N; 13%N; 10%N].
Lemma K5_crlf hc cap o : K5 hc cap o CRLF = ROk tt (2 + o) [].
Proof. reflexivity. Qed.

Lemma eol_part e off l : ref_eol e off l = RPart ->
  exists t, bytes_ok t /\ exists o, ref_eol e off (l ++ t) = ROk tt o [].
Proof.
  rewrite ref_eol_eq. unfold on_eol. destruct (eol_at off l) eqn:Ee; try discriminate. intros _.
  destruct (eol_at_finish _ _ Ee) as [t [Hbt [o Ht]]]. exists t. split; [exact Hbt|]. exists o.
  rewrite ref_eol_eq. unfold on_eol. rewrite Ht. reflexivity.
Qed.
Lemma eol_stage e : stage (fun _ => true) (ref_eol e).
Proof.
  apply stage_exact.
  - intros. apply ref_eol_stable.
  - intros. apply advances_weaken, ref_eol_adv.
  - intros off l H. destruct (eol_part _ _ _ H) as [t [Hbt [o Ht]]].
    exact (finish_with _ t _ _ _ _ _ Hbt Ht).
Qed.

Lemma empty_lines_part : forall l off, ref_empty_lines off l = RPart ->
  exists t, bytes_ok t /\ forall c R, is 13 c || is 10 c = false ->
    exists o, ref_empty_lines off (l ++ t ++ c :: R) = ROk tt o (c :: R).
Proof.
  intros l off. pattern (ref_empty_lines off l) at 1. revert off l.
  apply ref_empty_lines_ind; try discriminate.
  - (* inside a line end: finish it, and c ends the run *)
    intros off l Ee _. destruct (eol_at_finish _ _ Ee) as [t [Hbt [o Ht]]]. exists t. split; [exact Hbt|].
    intros c R Hc. rewrite app_assoc, ref_empty_lines_eq. unfold on_eol. rewrite (eol_at_ext _ _ _ _ _ Ht).
    apply orb_false_elim in Hc as [H13 H10]. cbn [app]. rewrite rel_stop by assumption. eauto.
  - intros off e r x He IH Hx. destruct (IH Hx) as [t [Hbt Ht]]. exists t. split; [exact Hbt|].
    intros c R Hc. rewrite <- app_assoc, rel_eol by exact He. exact (Ht c R Hc).
Qed.
Lemma empty_lines_stage : stage (fun c => negb (is 13 c || is 10 c)) ref_empty_lines.
Proof.
  split; [intros; apply ref_empty_lines_stable|]. split; [apply ref_empty_lines_adv|].
  intros off l H. destruct (empty_lines_part _ _ H) as [t [Hbt Ht]]. exists t. split; [exact Hbt|].
  intros c R Hc. left. destruct (Ht c R (proj1 (negb_true_iff _) Hc)) as [o Ho]. eauto.
Qed.

Lemma spaces_part ms off l : ref_spaces ms off l = RPart ->
  forall c R, is 32 c = false -> ref_spaces ms off (l ++ c :: R) = ROk tt (length l + off) (c :: R).
Proof.
  unfold ref_spaces. destruct ms; [|discriminate]. destruct (span_viewP (is 32) l) as [|_ Hs]; [discriminate|].
  intros _ c R Hc. rewrite (Hs c R Hc). reflexivity.
Qed.
Lemma spaces_stage ms : stage (fun c => negb (is 32 c)) (ref_spaces ms).
Proof.
  split; [intros; apply ref_spaces_stable|]. split; [apply ref_spaces_adv|].
  intros off l H. exists []. split; [apply Forall_nil|]. intros c R Hc. left. apply negb_true_iff in Hc.
  cbn [app]. rewrite (spaces_part _ _ _ H c R Hc). eauto.
Qed.

Lemma method_stage : stage (fun _ => true) ref_method.
Proof.
  apply stage_exact.
  - intros. apply ref_method_stable.
  - intros. apply advances_weaken, ref_method_adv.
  - intros off l. unfold ref_method. destruct (span_viewP tchar l) as [m b r|_ Hs].
    { destruct (null m); [discriminate|]. destruct (is 32 b); discriminate. }
    intros _. destruct l as [|x l'].
    + eapply (finish_with ref_method [71; 32]%N); [closed_bytes|reflexivity].
    + eapply (finish_with ref_method [32%N]); [closed_bytes|].
      unfold ref_method. rewrite Hs by reflexivity. reflexivity.
Qed.

Lemma target_stage : stage (fun _ => true) ref_target.
Proof.
  apply stage_exact.
  - intros. apply ref_target_stable.
  - intros. apply advances_weaken, ref_target_adv.
  - intros off l. unfold ref_target. destruct (span_viewP uri_char l) as [t b r|Es Hs].
    { destruct (negb (is 32 b)); [discriminate|].
      destruct (null t); [discriminate|].
      destruct (negb (utf8_valid t)); discriminate. }
    intros _. destruct l as [|x l'].
    + eapply (finish_with ref_target [47; 32]%N); [closed_bytes|reflexivity].
    + (* the SP ends the target, which is then judged *)
      exists [32%N]. split; [closed_bytes|].
      rewrite Hs by reflexivity. change (negb (is 32 32)) with false. cbn [null].
      destruct (utf8_valid (x :: l')) eqn:Eu; cbn [negb]; [left; eexists; eexists; reflexivity|].
      right. split; [reflexivity|]. exists [], (x :: l').
      repeat split; [discriminate|rewrite Es; reflexivity|exact Eu].
Qed.

Lemma is_prefix_split : forall a b, is_prefix a b = true -> b = a ++ skipn (length a) b.
Proof.
  induction a as [|x a IH]; intros b H; [reflexivity|]. destruct b as [|y b]; [discriminate|].
  cbn [is_prefix] in H. apply andb_prop in H as [H1 H2]. apply N.eqb_eq in H1. subst y.
  cbn [length skipn app]. f_equal. apply IH. exact H2.
Qed.
Lemma take_none_short : forall n (l : list N), take n l = None -> length l < n.
Proof.
  induction n as [|n IH]; intros l H; [discriminate|]. destruct l as [|x l]; [cbn; lia|].
  cbn [take] in H. destruct (take n l) eqn:E; [discriminate|]. apply IH in E. cbn [length]. lia.
Qed.
Lemma version_stage : stage (fun _ => true) ref_version.
Proof.
  apply stage_exact.
  - intros. apply ref_version_stable.
  - intros. apply advances_weaken, ref_version_adv.
  - intros off l. unfold ref_version. destruct (take 8 l).
    { destruct (list_eqb _ _); [discriminate|]. destruct (list_eqb _ _); discriminate. }
    destruct (is_prefix l HTTP1dot) eqn:Ep; [|discriminate]. intros _.
    (* the rest of "HTTP/1." and a 1 *)
    eapply (finish_with ref_version (skipn (length l) HTTP1dot ++ [49%N])).
    + apply bytes_ok_app; split; [apply bytes_ok_skipn|]; closed_bytes.
    + rewrite app_assoc, <- (is_prefix_split _ _ Ep). reflexivity.
Qed.

Lemma sp_stage e : stage (fun _ => true) (ref_sp e).
Proof.
  apply stage_exact.
  - intros. apply ref_sp_stable.
  - intros. apply advances_weaken, ref_sp_adv.
  - intros off [|b r]; [|cbn [ref_sp]; destruct (is 32 b); discriminate]. intros _.
    eapply (finish_with (ref_sp e) [32%N]); [closed_bytes|reflexivity].
Qed.

(* a code that is begun is filled up with zeros *)
Lemma code_stage : stage (fun _ => true) ref_code.
Proof.
  apply stage_exact.
  - intros. apply ref_code_stable.
  - intros. apply advances_weaken, ref_code_adv.
  - intros off [|a [|b [|c r]]]; unfold ref_code.
    + intros _. eapply (finish_with ref_code [50; 48; 48]%N); [closed_bytes|reflexivity].
    + destruct (digit a) eqn:Ea; [intros _|discriminate].
      eapply (finish_with ref_code [48; 48]%N); [closed_bytes|]. cbn [app ref_code]. rewrite Ea. reflexivity.
    + destruct (digit a) eqn:Ea; [|discriminate]. destruct (digit b) eqn:Eb; [intros _|discriminate].
      eapply (finish_with ref_code [48%N]); [closed_bytes|]. cbn [app ref_code]. rewrite Ea, Eb. reflexivity.
    + destruct (digit a); [|discriminate]. destruct (digit b); [|discriminate]. destruct (digit c); discriminate.
Qed.

Lemma reason_part off l : ref_reason off l = RPart ->
  exists t, bytes_ok t /\ exists x o, ref_reason off (l ++ t) = ROk x o [].
Proof.
  unfold ref_reason. destruct (span_viewP reason_char l) as [t b r1 Hs|_ Hs]; cbn zeta.
  - destruct (ref_eol Status (length t + off) (b :: r1)) as [u o r'| |e] eqn:Ee; try discriminate. intros _.
    destruct (eol_part _ _ _ Ee) as [t2 [Hbt2 [o Ht2]]]. exists t2. split; [exact Hbt2|].
    rewrite Hs. cbn zeta. change (b :: r1 ++ t2) with ((b :: r1) ++ t2). rewrite Ht2. eauto.
  - intros _. exists CRLF. split; [closed_bytes|]. rewrite Hs by reflexivity. eexists; eexists. reflexivity.
Qed.

Lemma after_code_stage ms : stage (fun _ => true) (ref_after_code ms).
Proof.
  apply stage_exact.
  - intros. apply ref_after_code_stable.
  - apply ref_after_code_adv.
  - intros off l. unfold ref_after_code.
    destruct l as [|b r].
    { intros _. eapply (finish_with (ref_after_code ms) CRLF); [closed_bytes|reflexivity]. }
    destruct (is 32 b) eqn:E32.
    + intros H. destruct (ref_spaces ms (S off) r) as [u o r'| |e] eqn:Esp; cbn [rbind] in H; try discriminate.
      * (* in the reason *)
        destruct (reason_part _ _ H) as [t [Hbt [x [o' Ht]]]].
        apply (finish_with (ref_after_code ms) t) with x o'; [exact Hbt|].
        cbn [app ref_after_code]. rewrite E32.
        pose proof (ref_spaces_stable t ms (S off) r) as Hs. rewrite Esp in Hs. cbn [extends] in Hs.
        rewrite Hs. exact Ht.
      * (* in the blanks before it: an empty reason *)
        eapply (finish_with (ref_after_code ms) CRLF); [closed_bytes|].
        cbn [app ref_after_code]. rewrite E32, (spaces_part _ _ _ Esp) by reflexivity. reflexivity.
    + destruct (is 13 b || is 10 b) eqn:Ec; [|discriminate].
      destruct (ref_eol Status off (b :: r)) as [u o r'| |e] eqn:Ee; try discriminate. intros _.
      destruct (eol_part _ _ _ Ee) as [t [Hbt [o Ht]]].
      eapply (finish_with (ref_after_code ms) t); [exact Hbt|].
      cbn [app ref_after_code]. rewrite E32, Ec.
      change (b :: r ++ t) with ((b :: r) ++ t). rewrite Ht. reflexivity.
Qed.

(* What is appended after a stage so that the stages after it succeed: VTAIL is "HTTP/1.1" and
   TAIL2, TTAIL is "/ " and VTAIL, MTAIL is "G " and TTAIL. *)
Notation VTAIL := [72; 84; 84; 80; 47; 49; 46; 49; 13; 10; 13; 10]%N.
Notation TTAIL := (47%N :: 32%N :: VTAIL).
Notation MTAIL := (71%N :: 32%N :: TTAIL).

Definition K4 hc cap : nat -> list N -> rres unit := fun o l => rbind (ref_eol NewLine o l) (fun _ => K5 hc cap).
Lemma K4_tail hc cap o : K4 hc cap o TAIL2 = ROk tt (4 + o) [].
Proof. reflexivity. Qed.

Definition K3v hc cap : nat -> list N -> rres unit := fun o l => rbind (ref_version o l) (fun _ => K4 hc cap).
Lemma K3v_tail hc cap o : K3v hc cap o VTAIL = ROk tt (12 + o) [].
Proof. reflexivity. Qed.

Definition K3 ms hc cap : nat -> list N -> rres unit := fun o l => rbind (ref_spaces ms o l) (fun _ => K3v hc cap).
Lemma K3_tail ms hc cap o : K3 ms hc cap o VTAIL = ROk tt (12 + o) [].
Proof. destruct ms; reflexivity. Qed.

Definition K2t ms hc cap : nat -> list N -> rres unit := fun o l => rbind (ref_target o l) (fun _ => K3 ms hc cap).
Lemma K2t_tail ms hc cap o : K2t ms hc cap o TTAIL = ROk tt (14 + o) [].
Proof. destruct ms; reflexivity. Qed.

Definition K2 ms hc cap : nat -> list N -> rres unit := fun o l => rbind (ref_spaces ms o l) (fun _ => K2t ms hc cap).
Lemma K2_tail ms hc cap o : K2 ms hc cap o TTAIL = ROk tt (14 + o) [].
Proof. destruct ms; reflexivity. Qed.

Definition K1 ms hc cap : nat -> list N -> rres unit := fun o l => rbind (ref_method o l) (fun _ => K2 ms hc cap).
Lemma K1_tail ms hc cap o : K1 ms hc cap o MTAIL = ROk tt (16 + o) [].
Proof. destruct ms; reflexivity. Qed.

Definition K0 ms hc cap : nat -> list N -> rres unit := fun o l => rbind (ref_empty_lines o l) (fun _ => K1 ms hc cap).

(* one stage per line, each with the canned input that the stages after it accept *)
Lemma K0_comp ms hc cap : Comp (K0 ms hc cap).
Proof.
  apply (comp_seq _ _ _ MTAIL empty_lines_stage eq_refl); [closed_bytes|intros; eexists; apply K1_tail|].
  apply (comp_seq _ _ _ TTAIL method_stage eq_refl); [closed_bytes|intros; eexists; apply K2_tail|].
  apply (comp_seq _ _ _ TTAIL (spaces_stage ms) eq_refl); [closed_bytes|intros; eexists; apply K2t_tail|].
  apply (comp_seq _ _ _ VTAIL target_stage eq_refl); [closed_bytes|intros; eexists; apply K3_tail|].
  apply (comp_seq _ _ _ VTAIL (spaces_stage ms) eq_refl); [closed_bytes|intros; eexists; apply K3v_tail|].
  apply (comp_seq _ _ _ TAIL2 version_stage eq_refl); [closed_bytes|intros; eexists; apply K4_tail|].
  apply (comp_seq _ _ _ CRLF (eol_stage NewLine) eq_refl); [closed_bytes|intros; eexists; apply K5_crlf|].
  apply K5_comp.
Qed.

(* Both sides run the same stages in the same order: split on the outcome of the stage at the head of
   the pipeline on the right; unless it succeeded both sides stop with its answer. *)
Ltac next_stage :=
  match goal with |- _ = rbind ?s _ =>
    destruct s as [? ? ?| |?]; cbn [rbind rq_status rp_status st_res]; [|reflexivity|reflexivity] end.

Lemma request_pipe cf cap buf :
  st_res (rq_status (ref_request cf cap buf)) =
  K0 (allow_multiple_spaces_in_request_line_delimiters cf) (request_hcfg cf) cap 0 buf.
Proof.
  unfold ref_request, ref_request_line, K0, K1, K2, K2t, K3, K3v, K4, K5.
  do 7 next_stage. destruct (ref_headers _ _ _ _). reflexivity.
Qed.

Definition completes (bad : Prop) (st : status) : Prop :=
  (exists n, st = Complete n) \/ st = Error TooManyHeaders \/ (st = Error Token /\ bad).

Lemma okx_completes X st : okx X (st_res st) -> completes X st.
Proof.
  intros [[o [r H]]|[H|[H HX]]]; destruct st; cbn [st_res] in H; try discriminate.
  - left. eexists; reflexivity.
  - injection H as ->. right; left; reflexivity.
  - injection H as ->. right; right. split; [reflexivity|exact HX].
Qed.

Theorem ref_request_completable cf cap buf :
  rq_status (ref_request cf cap buf) = Partial ->
  exists ext, bytes_ok ext /\ completes (bad_target buf) (rq_status (ref_request cf cap (buf ++ ext))).
Proof.
  intros H. pose proof (request_pipe cf cap buf) as Hp. rewrite H in Hp. cbn [st_res] in Hp. symmetry in Hp.
  destruct (K0_comp _ _ _ _ _ Hp) as [ext [Hbe Hok]]. exists ext. split; [exact Hbe|].
  apply okx_completes. rewrite request_pipe. exact Hok.
Qed.

(* The same for a response: CTAIL is "200" and TAIL2, STAIL is " " and CTAIL, RTAIL is "HTTP/1.1"
   and STAIL. *)
Notation CTAIL := [50; 48; 48; 13; 10; 13; 10]%N.
Notation STAIL := (32%N :: CTAIL).
Notation RTAIL := (HTTP1dot ++ 49%N :: STAIL).

Definition R5 ms hc cap : nat -> list N -> rres unit := fun o l => rbind (ref_after_code ms o l) (fun _ => K5 hc cap).
Lemma R5_tail ms hc cap o : R5 ms hc cap o TAIL2 = ROk tt (4 + o) [].
Proof. reflexivity. Qed.

Definition R4 ms hc cap : nat -> list N -> rres unit := fun o l => rbind (ref_code o l) (fun _ => R5 ms hc cap).
Lemma R4_tail ms hc cap o : R4 ms hc cap o CTAIL = ROk tt (7 + o) [].
Proof. reflexivity. Qed.

Definition R3 ms hc cap : nat -> list N -> rres unit := fun o l => rbind (ref_spaces ms o l) (fun _ => R4 ms hc cap).
Lemma R3_tail ms hc cap o : R3 ms hc cap o CTAIL = ROk tt (7 + o) [].
Proof. destruct ms; reflexivity. Qed.

Definition R2 ms hc cap : nat -> list N -> rres unit := fun o l => rbind (ref_sp Version o l) (fun _ => R3 ms hc cap).
Lemma R2_tail ms hc cap o : R2 ms hc cap o STAIL = ROk tt (8 + o) [].
Proof. destruct ms; reflexivity. Qed.

Definition R1 ms hc cap : nat -> list N -> rres unit := fun o l => rbind (ref_version o l) (fun _ => R2 ms hc cap).
Lemma R1_tail ms hc cap o : R1 ms hc cap o RTAIL = ROk tt (16 + o) [].
Proof. destruct ms; reflexivity. Qed.

Definition R0 ms hc cap : nat -> list N -> rres unit := fun o l => rbind (ref_empty_lines o l) (fun _ => R1 ms hc cap).

Lemma R0_comp ms hc cap : Comp (R0 ms hc cap).
Proof.
  apply (comp_seq _ _ _ RTAIL empty_lines_stage eq_refl); [closed_bytes|intros; eexists; apply R1_tail|].
  apply (comp_seq _ _ _ STAIL version_stage eq_refl); [closed_bytes|intros; eexists; apply R2_tail|].
  apply (comp_seq _ _ _ CTAIL (sp_stage Version) eq_refl); [closed_bytes|intros; eexists; apply R3_tail|].
  apply (comp_seq _ _ _ CTAIL (spaces_stage ms) eq_refl); [closed_bytes|intros; eexists; apply R4_tail|].
  apply (comp_seq _ _ _ TAIL2 code_stage eq_refl); [closed_bytes|intros; eexists; apply R5_tail|].
  apply (comp_seq _ _ _ CRLF (after_code_stage ms) eq_refl); [closed_bytes|intros; eexists; apply K5_crlf|].
  apply K5_comp.
Qed.

Lemma response_pipe cf cap buf :
  st_res (rp_status (ref_response cf cap buf)) =
  R0 (allow_multiple_spaces_in_response_status_delimiters cf) (response_hcfg cf) cap 0 buf.
Proof.
  unfold ref_response, ref_status_line, R0, R1, R2, R3, R4, R5, K5.
  do 6 next_stage. destruct (ref_headers _ _ _ _). reflexivity.
Qed.

Lemma ref_response_no_token cf cap buf : rp_status (ref_response cf cap buf) <> Error Token.
Proof.
  rewrite ref_response_tail. cbn [rp_status].
  pose proof (ref_status_line_errs (allow_multiple_spaces_in_response_status_delimiters cf) buf) as He.
  destruct (snd (ref_status_line _ buf)) as [u o l| |e]; cbn [ref_tail fst errs_in] in *.
  - intros H. apply ref_header_block_errs in H as [[H|[H|H]]|H]; discriminate.
  - discriminate.
  - intros [= ->]. destruct He as [H|[H|H]]; discriminate.
Qed.

Theorem ref_response_completable cf cap buf :
  rp_status (ref_response cf cap buf) = Partial ->
  exists ext, bytes_ok ext /\ good (rp_status (ref_response cf cap (buf ++ ext))).
Proof.
  intros H. pose proof (response_pipe cf cap buf) as Hp. rewrite H in Hp. cbn [st_res] in Hp. symmetry in Hp.
  destruct (R0_comp _ _ _ _ _ Hp) as [ext [Hbe Hok]]. exists ext. split; [exact Hbe|].
  rewrite <- response_pipe in Hok.
  apply okx_completes in Hok as [Hc|[Hc|[Hc _]]]; [left; exact Hc|right; exact Hc|].
  exfalso. eapply ref_response_no_token. exact Hc.
Qed.

(* Chunk.v's phase-indexed form of the grammar: what is missing at the end of the input is a digit
   if there is none yet and then CR LF, or, after a CR, the LF. *)
Lemma cspec_completable : forall l ph count size off v,
  Chunk.cspec ph count size off l = (Partial, v) ->
  exists ext, bytes_ok ext /\ exists n v', Chunk.cspec ph count size off (l ++ ext) = (Complete n, v').
Proof.
  induction l as [|b r IH]; intros ph count size off v H.
  - destruct ph; [destruct count|..].
    + exists [48; 13; 10]%N. split; [closed_bytes|]. eexists; eexists; reflexivity.
    + exists CRLF. split; [closed_bytes|]. eexists; eexists; reflexivity.
    + exists CRLF. split; [closed_bytes|]. eexists; eexists; reflexivity.
    + exists CRLF. split; [closed_bytes|]. eexists; eexists; reflexivity.
    + exists [10%N]. split; [closed_bytes|]. eexists; eexists; reflexivity.
  - cbn [Chunk.cspec app] in *.
    destruct (Chunk.cstep ph count b); [exact (IH _ _ _ _ _ H)|exact (IH _ _ _ _ _ H)|discriminate H..].
Qed.

Theorem ref_chunk_completable buf v :
  ref_chunk buf = (Partial, v) -> exists ext, bytes_ok ext /\ exists n v', ref_chunk (buf ++ ext) = (Complete n, v').
Proof.
  rewrite Chunk.ref_chunk_spec. intros H. destruct (cspec_completable _ _ _ _ _ _ H) as [ext [Hb Hc]].
  exists ext. split; [exact Hb|]. rewrite Chunk.ref_chunk_spec. exact Hc.
Qed.
