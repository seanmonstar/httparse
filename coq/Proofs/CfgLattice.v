(* Proofs/CfgLattice.v -- the cfg lattice of src/simd/mod.rs (translated: Generated/Cfg.v):
   under every cfg environment exactly one provider of the three scanner entry points is
   re-exported, it provides all three, and every module an enabled item refers to is itself
   enabled.  Also the hand model of build.rs. *)
From Coq Require Import List Bool String.
From HV Require Import CfgBase.
From HV.Generated Require Import Cfg.
Import ListNotations.
Local Open Scope string_scope.

Definition three : list string :=
  ["match_uri_vectored"; "match_header_value_vectored"; "match_header_name_vectored"].

Fixpoint assoc {A} (k : string) (l : list (string * A)) : option A :=
  match l with
  | [] => None
  | (k', v) :: r => if String.eqb k k' then Some v else assoc k r
  end.
Definition mem (s : string) (l : list string) : bool := existsb (String.eqb s) l.

(* module m is compiled in: a `mod m;` or inline `mod m { }` item whose cfg holds *)
Definition mod_enabled (e : cfgenv) (m : string) : bool :=
  existsb (fun it => match it with
                     | (IMod, n, c) | (IInline, n, c) => String.eqb n m && c
                     | _ => false end) (simd_items e).
(* what module m exports: the pub fns of its file, or the three shims of an inline module *)
Definition exports_of (m : string) : list string :=
  match assoc m module_exports with
  | Some l => l
  | None => map (fun s => snd (fst s)) (filter (fun s => String.eqb (fst (fst s)) m) simd_shims)
  end.
Definition refs_of (m : string) : list string :=
  match assoc m module_refs with
  | Some l => l
  | None => map snd (filter (fun s => String.eqb (fst (fst s)) m) simd_shims)
  end.

Definition used_modules (e : cfgenv) : list string :=
  flat_map (fun it => match it with (IUse, n, true) => [n] | _ => [] end) (simd_items e).

Definition cfg_ok (e : cfgenv) : bool :=
  match used_modules e with
  | [m] =>
      mod_enabled e m &&
      forallb (fun f => mem f (exports_of m)) three &&
      (* references are closed under enabledness, two levels deep (the lattice is that shallow) *)
      forallb (fun r => mod_enabled e r && forallb (mod_enabled e) (refs_of r)) (refs_of m)
  | _ => false
  end.

Theorem cfg_exactly_one_provider : forall e, cfg_ok e = true.
Proof. intros [[] [] [] [] []]; vm_compute; reflexivity. Qed.

Record benv := mkbenv {
  be_std : bool;            (* CARGO_FEATURE_STD set *)
  be_miri : bool;           (* CARGO_CFG_MIRI set *)
  be_disable : bool;        (* CARGO_CFG_HTTPARSE_DISABLE_SIMD = "1" *)
  be_rtonly : bool;         (* CARGO_CFG_HTTPARSE_DISABLE_SIMD_COMPILETIME = "1" *)
  be_features : bool;       (* CARGO_CFG_TARGET_FEATURE present and valid UTF-8 *)
  be_sse42 : bool;          (* the list contains "sse4.2" *)
  be_avx2 : bool;           (* the list contains "avx2" *)
  be_neon_rustc : bool      (* rustc >= 1.59.0 *)
}.
(* the cfgs build.rs emits, given that the rustc version could be parsed *)
Definition build_rs (b : benv) (ar : arch) : cfgenv :=
  if negb (be_std b) || be_miri b || be_disable b then mkcfgenv false false false false ar
  else
    let ct := negb (be_rtonly b) && be_features b in
    mkcfgenv true (ct && be_sse42 b) (ct && be_avx2 b) (be_neon_rustc b) ar.

Theorem build_script_table : forall b ar,
  cfg_ok (build_rs b ar) = true /\
  (ce_simd (build_rs b ar) = true -> be_std b = true) /\
  (ce_simd (build_rs b ar) = false -> ce_sse42 (build_rs b ar) = false /\ ce_avx2 (build_rs b ar) = false).
Proof.
  intros b ar. split; [apply cfg_exactly_one_provider|].
  unfold build_rs. destruct (be_std b), (be_miri b), (be_disable b); cbn; split; intros; try discriminate; auto.
Qed.
