(* TieBase.v -- facts about the combinators of Imp.v, and the start-line functions shared by requests and
   responses or used by requests only (skip_empty_lines, skip_spaces, parse_version, parse_token, parse_method,
   parse_uri): as translated from /repo/src/lib.rs on this run (Generated/Lib.v, G9) they are equal to the
   hand-written model (Model.v) the theorems are about.  The bodies generated from lib.rs are not restated: a
   proof unfolds the `g_` definition and works on what it finds, loop bodies are taken out of the generated term
   (`grab_loop`).  What is written out are the expansions of the macros `next!`, `expect!`, `newline!`, once each
   (inext, iexpect, inewline), and, in TieLoops.v, the two shapes of the scanner loop shells. *)
From Coq Require Import List NArith Bool.
From HV Require Import Cursor Scan Model Imp ImpLib.
From HV.Generated Require Import Lib.
Import ListNotations.
Local Open Scope N_scope.
Local Open Scope imp_scope.

(* for straight-line bodies: compute the whole body down to matches on the cursor *)
Ltac imp_unfold :=
  cbv beta iota zeta delta [irun ifun ibind iret ilift iget iset ipart ifail ifault ithrow iguard ireturn
                            bind ret fail part fault_ expect next next_opt peek peek_n peek_ahead advance bump
                            slice slice_skip pos remaining space newline commit apos
                            rest pre tokrev].

Lemma in_rng_range lo hi b : in_rng lo hi b = in_range lo hi b.
Proof. reflexivity. Qed.

Lemma bind_ext {A B} (m : P A) (k k' : A -> P B) c :
  (forall a c', k a c' = k' a c') -> bind m k c = bind m k' c.
Proof. intros H. unfold bind. destruct (m c); [apply H|reflexivity..]. Qed.

Section ImpFacts.
Context {L R B : Type}.
Notation I := (I L R B).

Lemma ilift_ext {A} {g p : P A} : (forall c, g c = p c) -> forall (l : L) c, ilift (R:=R) (B:=B) g l c = ilift p l c.
Proof. intros H l c. unfold ilift. rewrite H. reflexivity. Qed.

(* `next!` and `expect!` as expanded from macros.rs are the model's `next` and `expect` *)
Lemma inext (l : L) c :
  ((t <~ ilift next_opt ;; match t with Some v => iret v | None => ipart end) : I N) l c = ilift next l c.
Proof. unfold ibind, ilift, next_opt, next, iret, ipart. destruct (rest c); reflexivity. Qed.

Lemma iexpect k e (l : L) c :
  ((t <~ (t <~ ilift next_opt ;; match t with Some v => iret v | None => ipart end) ;;
   if N.eqb t k then iret t else ifail e) : I N) l c = ilift (expect (is k) e) l c.
Proof.
  unfold expect, bind, is, ibind, ilift, next_opt, next, iret, ipart.
  destruct (rest c) as [|b r]; [|destruct (N.eqb b k)]; reflexivity.
Qed.

(* `newline!` as expanded from macros.rs is the model's `newline` *)
Lemma inewline (l : L) c :
  ((t <~ (t <~ ilift next_opt ;; match t with Some v => iret v | None => ipart end) ;;
    (if N.eqb t 13
     then (t <~ (t <~ ilift next_opt ;; match t with Some v => iret v | None => ipart end) ;;
           if N.eqb t 10 then iret t else ifail NewLine) ;;~ ilift slice ;;~ iret tt
     else if N.eqb t 10 then ilift slice ;;~ iret tt else ifail NewLine)) : I unit) l c = ilift newline l c.
Proof.
  destruct c as [p t r]. imp_unfold. unfold is, CR, LF.
  destruct r as [|b r]; [reflexivity|].
  destruct (N.eqb b 13); [|destruct (N.eqb b 10); reflexivity].
  destruct r as [|b2 r]; [reflexivity|]. destruct (N.eqb b2 10); reflexivity.
Qed.

Lemma irun_lift (p : P R) l c : irun (L:=L) (B:=B) (ilift p) l c = p c.
Proof. unfold irun, ifun, ilift. destruct (p c); reflexivity. Qed.

Lemma irun_bind_lift {A} (m : I A) (p : P A) (k : A -> I R) l c :
  (forall l c, m l c = ilift p l c) -> irun (ibind m k) l c = bind p (fun x => irun (k x) l) c.
Proof. intros H. unfold irun, ifun, ibind, bind. rewrite H. unfold ilift. destruct (p c); reflexivity. Qed.

Lemma irun_ret {A} (a : A) (k : A -> I R) l c : irun (ibind (iret a) k) l c = irun (k a) l c.
Proof. reflexivity. Qed.

Lemma irun_assoc {A C} (m : I A) (f : A -> I C) (k : C -> I R) l c :
  irun (ibind (ibind m f) k) l c = irun (ibind m (fun a => ibind (f a) k)) l c.
Proof. unfold irun, ifun, ibind. destruct (m l c); reflexivity. Qed.

Lemma irun_expect byte e (k : I R) (q : P R) l c :
  (forall c', irun k l c' = q c') ->
  irun ((t <~ (t <~ ilift next_opt ;; match t with Some v => iret v | None => ipart end) ;;
         if N.eqb t byte then iret t else ifail e) ;;~ k) l c
  = (expect (is byte) e ;;; q) c.
Proof.
  intros Hk. rewrite (irun_bind_lift _ (expect (is byte) e)) by apply iexpect.
  apply bind_ext. intros _ c'. apply Hk.
Qed.

(* a function whose body is `loop { .. }` left only by `return` *)
Definition to_out {A} (r : ires L R B A) : out R :=
  match r with
  | IExc (Ret v) _ c => Done v c
  | IPart _ => Part
  | IFail e _ => Fail e
  | IFault f _ => Fault f
  | _ => Fault Unreachable
  end.

Lemma irun_loop_tail (m : I B) l c :
  irun (m ;;~ ifault Unreachable) l c = to_out (m l c).
Proof.
  unfold irun, ifun, ibind, ifault, to_out.
  destruct (m l c) as [a l' c'|l'|e l'|f l'|x l' c']; try reflexivity.
  destruct x; reflexivity.
Qed.

Definition loop_k (again : I B) (lbl : nat) (r : ires L R B unit) : ires L R B B :=
  match r with
  | IDone _ l c => again l c
  | IExc (Cnt k) l c => if Nat.eqb k lbl then again l c else IExc (Cnt k) l c
  | IExc (Brk k v) l c => if Nat.eqb k lbl then IDone v l c else IExc (Brk k v) l c
  | IExc (Ret r) l c => IExc (Ret r) l c
  | IPart l => IPart l
  | IFail e l => IFail e l
  | IFault f l => IFault f l
  end.
Lemma iloop_S f lbl body l c : iloop (S f) lbl body l c = loop_k (iloop f lbl body) lbl (body l c).
Proof. reflexivity. Qed.
End ImpFacts.

(* the body of the loop labelled n is named by taking it from the generated term in the goal *)
Ltac grab_loop n B :=
  match goal with |- context [iloop _ n ?body] => set (B := body) end.

Lemma tie_skip_empty_lines fuel c : g_skip_empty_lines fuel c = skip_empty_lines fuel c.
Proof.
  unfold g_skip_empty_lines, g_skip_empty_lines_body, skip_empty_lines, g_skip_empty_lines_init.
  rewrite irun_loop_tail.
  revert c; induction fuel as [|f IH]; intros [p t r]; [reflexivity|].
  cbn [skip_empty_lines_f iloop]. imp_unfold. cbn [rest pre tokrev hd_error].
  destruct r as [|b r]; cbn [hd_error]; [reflexivity|].
  unfold is, CR, LF. destruct (N.eqb b 13).
  - cbn [shift rest pre tokrev]. destruct r as [|b2 r]; [reflexivity|].
    cbn [rest pre tokrev]. destruct (N.eqb b2 10); [|reflexivity]. apply IH.
  - destruct (N.eqb b 10).
    + cbn [shift rest pre tokrev]. apply IH.
    + reflexivity.
Qed.

Lemma tie_skip_spaces fuel c : g_skip_spaces fuel c = skip_spaces fuel c.
Proof.
  unfold g_skip_spaces, g_skip_spaces_body, skip_spaces, g_skip_spaces_init.
  rewrite irun_loop_tail.
  revert c; induction fuel as [|f IH]; intros [p t r]; [reflexivity|].
  cbn [skip_spaces_f iloop]. imp_unfold. cbn [rest pre tokrev hd_error].
  destruct r as [|b r]; cbn [hd_error]; [reflexivity|].
  unfold is, SP. destruct (N.eqb b 32).
  - cbn [shift rest pre tokrev]. apply IH.
  - reflexivity.
Qed.

Lemma tie_parse_version c : g_parse_version c = parse_version c.
Proof.
  unfold g_parse_version, g_parse_version_body, parse_version, g_parse_version_init, H10, H11.
  (* the first statement returns when eight bytes are left, else falls through *)
  rewrite irun_assoc, (irun_bind_lift _ (peek_n 8)) by reflexivity.
  apply bind_ext. intros [eight|] [p t r].
  - imp_unfold. destruct (shift 8 t r) as [[tk r']|]; [|reflexivity].
    destruct (list_eqb eight _); [reflexivity|].
    destruct (list_eqb eight _); reflexivity.
  - rewrite irun_ret. do 7 (apply irun_expect; intros ?c). reflexivity.
Qed.

Section WithEnv.
Variable E : env.

Lemma tie_parse_token fuel c : g_parse_token E fuel c = parse_token E fuel c.
Proof.
  unfold g_parse_token, g_parse_token_body, parse_token, g_parse_token_init.
  grab_loop 1%nat B.
  assert (HL : forall f c, to_out (A:=unit) (iloop f 1 B tt c) = parse_token_f E f c).
  { clear c. induction f as [|f IH]; intros [p t r]; [reflexivity|].
    cbn [parse_token_f iloop]. unfold B at 1. imp_unfold. cbn [rest pre tokrev].
    destruct r as [|b r]; [reflexivity|]. cbn [rest pre tokrev].
    unfold is, SP. destruct (N.eqb b 32).
    - cbn [drop]. reflexivity.
    - destruct (c_method E b); cbn [negb]; [apply IH|reflexivity]. }
  rewrite (irun_bind_lift _ next) by apply inext.
  unfold bind. destruct (next c) as [b c1| | |]; try reflexivity.
  destruct (c_method E b); [|reflexivity].
  exact (eq_trans (irun_loop_tail _ tt c1) (HL fuel c1)).
Qed.

Lemma tie_parse_method fuel c : g_parse_method E fuel c = parse_method E fuel c.
Proof.
  unfold g_parse_method, g_parse_method_body, parse_method, g_parse_method_init, GET_, POST.
  assert (HT : forall c, irun (B:=unit) (ilift (g_parse_token E fuel)) tt c = parse_token E fuel c).
  { intros c'. rewrite irun_lift. apply tie_parse_token. }
  rewrite (irun_bind_lift _ (peek_n 4)) by reflexivity.
  destruct c as [p t r]. unfold bind, peek_n. cbn [rest].
  destruct (take 4 r) as [four|]; [|apply HT].
  destruct (list_eqb four _).
  - imp_unfold. destruct (shift 4 t r) as [[tk r']|]; [|reflexivity]. imp_unfold.
    destruct (drop 1 tk); reflexivity.
  - destruct (list_eqb four _); [|apply HT].
    rewrite (irun_bind_lift _ (peek_ahead 4)) by reflexivity.
    unfold bind, peek_ahead. cbn [rest].
    destruct (drop 4 r) as [r4|]; [|reflexivity].
    unfold opt_is, is, SP. destruct (hd_error r4) as [b|]; [|apply HT].
    destruct (N.eqb b 32); [|apply HT].
    imp_unfold. destruct (shift 5 t r) as [[tk r']|]; [|reflexivity]. imp_unfold.
    destruct (drop 1 tk); reflexivity.
Qed.

Lemma tie_parse_uri fuel c : g_parse_uri E fuel c = parse_uri E fuel c.
Proof.
  unfold g_parse_uri, g_parse_uri_body, parse_uri, g_parse_uri_init, from_utf8.
  imp_unfold.
  destruct (s_uri E fuel c) as [[] c1| | |]; try reflexivity.
  destruct c1 as [p t r]. imp_unfold.
  destruct r as [|b r]; [reflexivity|]. imp_unfold.
  unfold is, SP. destruct (N.eqb b 32); [|reflexivity].
  destruct (Nat.eqb _ _); [reflexivity|].
  cbn [drop]. destruct (utf8_valid _); reflexivity.
Qed.

End WithEnv.
