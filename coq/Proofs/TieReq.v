(* TieReq.v -- `Request::parse_with_config_and_uninit_headers` and `Request::parse_with_config` as translated
   from /repo/src/lib.rs on this run (Generated/LibApi.v) = Api.request_core / request_with_config: the core
   stage by stage (TieApiBase.stage_rule), its end by TieApiBase.core_tail. *)
From Coq Require Import List NArith Bool.
From HV Require Import Cursor Scan Model Api Imp ImpLib ImpGlue.
From HV.Generated Require Import Lib LibApi.
From HV.Proofs Require Import TieBase Mono TieHeaders TieApiBase.
Import ListNotations.
Local Open Scope N_scope.

Section ApiTie.
Variable E : env.
Hypothesis Efwd : env_fwd E.

Definition fin_req (r : ires L_g_request_core nat unit nat) : rq_res :=
  let rq l := mkreq (g_request_core_self_method l) (g_request_core_self_path l)
                    (g_request_core_self_version l) (g_request_core_self_headers l) in
  match r with
  | IDone n l _ => (Complete n, rq l, g_request_core_v_mem l)
  | IPart l => (Partial, rq l, g_request_core_v_mem l)
  | IFail e l => (Error e, rq l, g_request_core_v_mem l)
  | IFault f l => (Faulted f, rq l, g_request_core_v_mem l)
  | IExc _ l _ => (Faulted Unreachable, rq l, g_request_core_v_mem l)
  end.

Definition rq_of (l : L_g_request_core) : request :=
  mkreq (g_request_core_self_method l) (g_request_core_self_path l)
        (g_request_core_self_version l) (g_request_core_self_headers l).

Theorem tie_request_core cf buf rq arr :
  fin_req (ifun (g_request_core_body E (S (length buf)) cf buf)
                (g_request_core_init (q_method rq) (q_path rq) (q_version rq) (q_hdrs rq) arr arr)
                (cur_new buf))
  = request_core E cf buf rq arr.
Proof.
  destruct Efwd as (Hu & _ & _). destruct rq as [m0 p0 v0 h0].
  unfold g_request_core_body, g_request_core_init, request_core. cbv zeta.
  change fin_req with (fin_gen (B:=unit) rq_of g_request_core_v_mem).
  pose proof (step_refl (cur_new buf)) as S0.
  rewrite stage_bind.
  stage_step (ilift_ext (tie_skip_empty_lines _)) (mono_skip_empty_lines _).
  stage_step (ilift_ext (tie_parse_method E _)) (mono_parse_method E _).
  rewrite ifun_iset, ifun_opt, stage_bind.
  stage_step (tie_opt_skip_spaces _ _) (mono_opt_skip_spaces _ _).
  stage_step (ilift_ext (tie_parse_uri E _)) (mono_parse_uri E _ Hu).
  rewrite ifun_iset, ifun_opt, stage_bind.
  stage_step (tie_opt_skip_spaces _ _) (mono_opt_skip_spaces _ _).
  stage_step (ilift_ext tie_parse_version) mono_parse_version.
  rewrite ifun_iset.
  stage_step inewline mono_newline.
  rewrite core_tail by eassumption. reflexivity.
Qed.

(* Request::parse_with_config as translated (take self.headers, cast, call the core, restore unless
   Complete) = Api.request_with_config *)
Definition fin_reqw (r : ires L_g_request_with_config nat unit nat) : rq_res :=
  let rq l := mkreq (g_request_with_config_self_method l) (g_request_with_config_self_path l)
                    (g_request_with_config_self_version l) (g_request_with_config_self_headers l) in
  match r with
  | IDone n l _ => (Complete n, rq l, g_request_with_config_v_mem l)
  | IPart l => (Partial, rq l, g_request_with_config_v_mem l)
  | IFail e l => (Error e, rq l, g_request_with_config_v_mem l)
  | IFault f l => (Faulted f, rq l, g_request_with_config_v_mem l)
  | IExc _ l _ => (Faulted Unreachable, rq l, g_request_with_config_v_mem l)
  end.

Theorem tie_request_with_config cf buf rq x y :
  fin_reqw (ifun (g_request_with_config_body E (S (length buf)) cf buf)
                 (g_request_with_config_init (q_method rq) (q_path rq) (q_version rq) (q_hdrs rq) x y)
                 (cur_new buf))
  = request_with_config E cf buf rq.
Proof.
  destruct rq as [m0 p0 v0 h0]. unfold request_with_config. cbn [q_method q_path q_version q_hdrs].
  rewrite <- (tie_request_core cf buf (mkreq m0 p0 v0 []) h0). cbn [q_method q_path q_version q_hdrs].
  unfold g_request_with_config_body, g_request_with_config_init, ifun at 1.
  cbv beta iota delta [ibind iget iset isub_catch].
  destruct (ifun (g_request_core_body E (S (length buf)) cf buf) _ (cur_new buf)) as [n l c|l|e l|f l|[] l c]; reflexivity.
Qed.

End ApiTie.
