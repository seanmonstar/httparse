(* TieIter.v -- the methods of `Bytes` as translated from /repo/src/iter.rs on this run (Generated/Iter.v:
   three addresses into the caller's buffer, every dereference and pointer step a CHECKED operation)
   against the hand-written cursor operations of Cursor.v (suffix lists) that the model and the translated
   lib.rs functions are built on.  For every base address, buffer and cursor state representing a position
   in that buffer: where the Cursor.v operation returns, the translated method returns the corresponding
   value and state WITHOUT faulting -- in particular every `*p` it executes is inside the buffer -- and where
   the Cursor.v operation is a Fault (its `unsafe` precondition is violated) the translated method faults too. *)
From Coq Require Import List NArith Bool Arith Lia.
From HV Require Import Cursor Ptr Imp ImpLib.
From HV.Generated Require Import Iter.
From HV.Proofs Require Import Base.
Import ListNotations.

(* the cursor state `c` stands at a position of the buffer `data` placed at address B *)
Definition pst_of (B : nat) (c : cur) : pst :=
  mkpst (B + pre c) (B + pre c + length (tokrev c) + length (rest c)) (B + pre c + length (tokrev c)).
Definition repr (data : list N) (c : cur) : Prop :=
  exists prefix, data = prefix ++ rev (tokrev c) ++ rest c /\ length prefix = pre c.

(* a K-byte vector load at `bytes.as_ref().as_ptr()` *)
Definition load_q (K : nat) : Q (nat * nat) := qbind i_as_ref (fun r => q_raw_parts (fst r) K).

Ltac q_unfold :=
  cbv beta iota delta [qbind qret qget qput ps_start ps_end ps_cursor pst_of
                       i_pos i_peek i_peek_ahead i_len i_is_empty i_commit i_advance i_bump
                       i_as_ref i_slice i_slice_skip i_advance_and_commit i_next i_new i_peek_n load_q].

Lemma leb_t a b : a <= b -> Nat.leb a b = true. Proof. intros; apply Nat.leb_le; lia. Qed.
Lemma ltb_t a b : a < b -> Nat.ltb a b = true. Proof. intros; apply Nat.ltb_lt; lia. Qed.
Lemma ltb_f a b : b <= a -> Nat.ltb a b = false. Proof. intros; apply Nat.ltb_ge; lia. Qed.
Lemma leb_f a b : b < a -> Nat.leb a b = false. Proof. intros; apply Nat.leb_gt; lia. Qed.

Lemma nth_hd_skipn (l : list N) n : nth n l 0%N = hd 0%N (skipn n l).
Proof. revert l. induction n as [|n IH]; intros [|x l]; try reflexivity. exact (IH l). Qed.

(* The checked operations of Ptr.v on a buffer `d` at address `b`: what each returns when its bound holds, and
   that it faults when the bound fails.  Every bounds check of a translated method is discharged below by one
   of these, by name. *)
Section Checked.
Variables (b : nat) (d : list N) (s : pst).
Let mem := mkpmem b d.
Ltac op := intros; cbv [q_deref q_add q_sub q_usub q_raw_parts pm_limit pm_base pm_data mem];
           rewrite ?leb_t, ?ltb_t, ?leb_f by lia; reflexivity.

Lemma deref_in p : b <= p < b + length d -> q_deref p mem s = PDone (hd 0%N (skipn (p - b) d)) s.
Proof. rewrite <- nth_hd_skipn. op. Qed.
Lemma add_in p n : b <= p -> p + n <= b + length d -> q_add p n mem s = PDone (p + n) s.
Proof. op. Qed.
Lemma add_out p n : b <= p -> b + length d < p + n -> q_add p n mem s = PFault AdvanceOOB.
Proof. op. Qed.
Lemma sub_in p n : b + n <= p <= b + length d -> q_sub p n mem s = PDone (p - n) s.
Proof. op. Qed.
Lemma sub_out p n : p < b + n -> q_sub p n mem s = PFault SkipUnderflow.
Proof.
  intros. cbv [q_sub pm_base mem]. destruct (Nat.leb_spec n p); [rewrite (leb_f b (p - n)) by lia|]; reflexivity.
Qed.
Lemma usub_ok p q : q <= p -> q_usub p q mem s = PDone (p - q) s.
Proof. op. Qed.
Lemma usub_out p q : p < q -> q_usub p q mem s = PFault SkipUnderflow.
Proof. op. Qed.
Lemma raw_in p n : b <= p -> p + n <= b + length d -> q_raw_parts p n mem s = PDone (p, n) s.
Proof. op. Qed.
Lemma raw_out p n : b <= p -> b + length d < p + n -> q_raw_parts p n mem s = PFault LoadOOB.
Proof. op. Qed.
End Checked.

(* A proof below goes through the checked operations of its method in the order the method performs them:
   `checked L` (L = deref_in, add_in, ...) says that the next one's bound holds, by the arithmetic of the context
   -- the buffer's length (HL, from repr_len) and the case at hand --, and moves on to the one after it;
   `lt_true`/`lt_false` decide the method's own test `p < end`, which the source may also write as `end <= p`
   with the branches exchanged. *)
Ltac checked L := rewrite L by lia; q_unfold.
Ltac lt_true := rewrite ?ltb_t, ?leb_f by lia; q_unfold.
Ltac lt_false := rewrite ?ltb_f, ?leb_t by lia; q_unfold.

Lemma qbind_done {A C} (q : Q A) (k : A -> Q C) mem s a s' :
  q mem s = PDone a s' -> qbind q k mem s = k a mem s'.
Proof. intros E. unfold qbind. rewrite E. reflexivity. Qed.

Section Tie.
Variable B : nat.
Variable data : list N.
Let m := mkpmem B data.

Lemma repr_len pc t r : repr data (mkcur pc t r) -> length data = pc + length t + length r.
Proof. intros (p & -> & Hp). cbn [pre tokrev rest] in *. rewrite !app_length, rev_length. lia. Qed.

Lemma repr_skipn pc t r a n : repr data (mkcur pc t r) -> a = B + pc + length t + n ->
  skipn (a - B) data = skipn n r.
Proof.
  intros (p & -> & Hp) ->. cbn [pre tokrev rest] in *.
  replace (B + pc + length t + n - B) with (length (p ++ rev t) + n) by (rewrite app_length, rev_length; lia).
  rewrite <- skipn_add, app_assoc, skipn_app, skipn_all, Nat.sub_diag. reflexivity.
Qed.

Lemma read_tok pc t r k n : repr data (mkcur pc t r) -> n + k = length t ->
  read_slice m (B + pc, n) = Sub pc (rev' (skipn k t)).
Proof.
  intros (p & -> & Hp) Hn. unfold read_slice. cbn [fst snd pm_base pm_data m tokrev rest pre] in *.
  rewrite Nat.add_comm, Nat.add_sub, <- Hp, skipn_app, skipn_all, Nat.sub_diag. cbn [skipn app]. f_equal.
  rewrite <- (firstn_skipn k t) at 1. rewrite rev_app_distr, <- app_assoc.
  replace n with (length (rev (skipn k t))) by (rewrite rev_length, skipn_length; lia).
  rewrite firstn_app, firstn_all, Nat.sub_diag. cbn [firstn]. rewrite app_nil_r. apply rev_alt.
Qed.

Lemma read_rest c n : repr data c -> sl_bytes (read_slice m (B + apos c, n)) = firstn n (rest c).
Proof.
  intros H. destruct c as [pc t r]. unfold read_slice, apos. cbn [fst snd pm_base pm_data m sl_bytes pre tokrev rest].
  rewrite (repr_skipn _ _ _ _ 0 H) by lia. reflexivity.
Qed.

Lemma repr_adv n c : repr data c -> repr data (adv n c).
Proof.
  intros (p & -> & Hp). exists p. split; [|exact Hp]. unfold adv. cbn [tokrev rest].
  rewrite rev_app_distr, rev_involutive, <- app_assoc, firstn_skipn. reflexivity.
Qed.
Lemma repr_commit c : repr data c -> repr data (commit c).
Proof.
  intros (p & -> & Hp). exists (p ++ rev (tokrev c)). unfold commit. cbn [tokrev rest pre rev app]. split.
  - apply app_assoc.
  - rewrite app_length, rev_length. lia.
Qed.

(* every proof below starts alike: name the parts of the cursor, expose the method as the sequence of its checked
   operations and (`open`) record the length of the buffer, HL *)
Ltac expose c := destruct c as [pc t r]; unfold m; q_unfold; cbn [pre tokrev rest].
Ltac open c H := expose c; pose proof (repr_len _ _ _ H) as HL.

Lemma tie_iter_peek c : repr data c ->
  i_peek m (pst_of B c) = PDone (hd_error (rest c)) (pst_of B c).
Proof.
  intros H. open c H. destruct r as [|b r]; cbn [length hd_error] in *.
  - lt_false. reflexivity.
  - (* cursor < end <= limit *)
    lt_true. checked deref_in. rewrite (repr_skipn _ _ _ _ 0 H) by lia. reflexivity.
Qed.

(* next(): Option-valued, as the expanded next! macro uses it (ImpLib.next_opt) *)
Lemma tie_iter_next c : repr data c ->
  match next_opt c with
  | Done o c' => i_next m (pst_of B c) = PDone o (pst_of B c') /\ repr data c'
  | _ => False
  end.
Proof.
  intros H. unfold next_opt. open c H. destruct r as [|b r]; cbn [length] in *.
  - lt_false. split; [reflexivity|exact H].
  - (* cursor < end <= limit: `*cursor` is in bounds and so is `cursor.add(1)` of bump() *)
    lt_true. checked deref_in. checked add_in. rewrite (repr_skipn _ _ _ _ 0 H) by lia.
    split; [|exact (repr_adv 1 _ H)].
    f_equal. cbn [pre tokrev rest length]. f_equal; lia.
Qed.

Lemma tie_iter_advance n c : repr data c ->
  match advance n c with
  | Done _ c' => i_advance n m (pst_of B c) = PDone tt (pst_of B c') /\ repr data c'
  | Fault _ => exists f, i_advance n m (pst_of B c) = PFault f
  | _ => False
  end.
Proof.
  intros H. open c H. destruct (Nat.le_gt_cases n (length r)) as [Hn|Hn].
  - rewrite advance_adv by exact Hn. checked add_in. split; [|exact (repr_adv n _ H)].
    f_equal. unfold adv. cbn [pre tokrev rest].
    rewrite app_length, rev_length, firstn_length, skipn_length, Nat.min_l by exact Hn. f_equal; lia.
  - rewrite advance_oob by exact Hn. rewrite add_out by lia. eauto.
Qed.

Lemma tie_iter_pos c : i_pos m (pst_of B c) = PDone (length (tokrev c)) (pst_of B c).
Proof. expose c. checked usub_ok. f_equal. lia. Qed.
Lemma tie_iter_len c : i_len m (pst_of B c) = PDone (length (rest c)) (pst_of B c).
Proof. expose c. checked usub_ok. f_equal. lia. Qed.

Lemma tie_iter_slice c : repr data c ->
  match slice c with
  | Done s c' => exists pl, i_slice m (pst_of B c) = PDone pl (pst_of B c') /\ read_slice m pl = s /\ repr data c'
  | _ => False
  end.
Proof.
  intros H. unfold slice. open c H. checked usub_ok. checked raw_in. eexists. split; [|split].
  - f_equal. unfold commit. cbn [pre tokrev rest length]. f_equal; lia.
  - apply (read_tok _ _ _ 0 _ H). lia.
  - exact (repr_commit _ H).
Qed.

Lemma tie_iter_slice_skip k c : repr data c ->
  match slice_skip k c with
  | Done s c' => exists pl, i_slice_skip k m (pst_of B c) = PDone pl (pst_of B c') /\ read_slice m pl = s /\ repr data c'
  | Fault _ => exists f, i_slice_skip k m (pst_of B c) = PFault f
  | _ => False
  end.
Proof.
  intros H. unfold slice_skip. open c H. rewrite drop_spec. destruct (Nat.leb_spec k (length t)) as [Hk|Hk].
  - checked sub_in. checked usub_ok. checked raw_in. eexists. split; [|split].
    + f_equal. unfold commit. cbn [pre tokrev rest length]. f_equal; lia.
    + apply (read_tok _ _ _ k _ H). lia.
    + exact (repr_commit _ H).
  - (* the skip goes back beyond `start`: `cursor.sub(skip)` leaves the buffer, or it stays inside (pc > 0) and
       the length `cursor.sub(skip) - start` underflows *)
    destruct (Nat.le_gt_cases k (pc + length t)).
    + checked sub_in. rewrite usub_out by lia. eauto.
    + rewrite sub_out by lia. eauto.
Qed.

Lemma tie_iter_peek_ahead n c : repr data c ->
  match peek_ahead n c with
  | Done o c' => i_peek_ahead n m (pst_of B c) = PDone o (pst_of B c) /\ c' = c
  | Fault _ => exists f, i_peek_ahead n m (pst_of B c) = PFault f
  | _ => False
  end.
Proof.
  intros H. unfold peek_ahead. open c H. rewrite drop_spec. destruct (Nat.leb_spec n (length r)) as [Hn|Hn].
  - pose proof (skipn_length n r) as Hl. pose proof (repr_skipn _ _ _ _ n H eq_refl) as Hs.
    checked add_in. destruct (skipn n r) as [|b r2]; cbn [length hd_error] in *.
    + lt_false. split; reflexivity.
    + lt_true. checked deref_in. rewrite Hs. split; reflexivity.
  - rewrite add_out by lia. eauto.
Qed.

(* as_ref(): (cursor, end - cursor); the bytes it denotes are the unread rest (read_rest) *)
Lemma tie_iter_as_ref c : repr data c ->
  i_as_ref m (pst_of B c) = PDone (B + apos c, length (rest c)) (pst_of B c).
Proof. intros H. unfold apos. open c H. checked usub_ok. checked raw_in. f_equal. f_equal; lia. Qed.

(* peek_n(n) is as_ref().get(..n): the n bytes it denotes are exactly Cursor.peek_n's *)
Lemma tie_iter_peek_n n c : repr data c ->
  exists o, i_peek_n n m (pst_of B c) = PDone o (pst_of B c) /\
            option_map (fun pl => sl_bytes (read_slice m pl)) o = take n (rest c).
Proof.
  intros H. eexists. split.
  - unfold i_peek_n. rewrite (qbind_done _ _ _ _ _ _ (tie_iter_as_ref c H)). reflexivity.
  - cbn [fst snd]. rewrite take_spec. destruct (Nat.leb n (length (rest c))); [|reflexivity].
    cbn [option_map]. f_equal. exact (read_rest c n H).
Qed.

Lemma tie_iter_load_block K c : repr data c ->
  match take K (rest c) with
  | Some bs => exists pl, load_q K m (pst_of B c) = PDone pl (pst_of B c) /\
                          sl_bytes (read_slice m pl) = bs
  | None => exists f, load_q K m (pst_of B c) = PFault f
  end.
Proof.
  intros H. unfold load_q. rewrite (qbind_done _ _ _ _ _ _ (tie_iter_as_ref c H)), take_spec. cbn [fst].
  pose proof (read_rest c K H) as Hr. unfold apos in *. open c H.
  destruct (Nat.leb_spec K (length r)); [rewrite raw_in by lia|rewrite raw_out by lia]; eauto.
Qed.

End Tie.

Lemma tie_iter_new B (buf : list N) :
  i_new (B, length buf) (mkpmem B buf) (mkpst 0 0 0) = PDone tt (pst_of B (cur_new buf)) /\ repr buf (cur_new buf).
Proof.
  q_unfold. cbn [fst snd pre tokrev rest cur_new length]. checked add_in.
  split; [f_equal; f_equal; lia|]. exists []. auto.
Qed.
