(* Proofs/RefFacts.v -- structural facts about the reference parsers: a successful stage consumes a
   prefix of its input (non-empty for `advances`, possibly empty for `advances0`) and reports the
   matching offset; hence what holds of a header block's result whatever the fuel (`block_inv`). *)
From Coq Require Import List NArith PeanoNat Lia Bool.
From HV Require Import Cursor Model Spec.
From HV.Proofs Require Import Base RefInd.
Import ListNotations.

Definition advances {A} (off : nat) (l : list N) (r : rres A) : Prop :=
  match r with
  | ROk _ o r' => exists k, 0 < k /\ k <= length l /\ o = k + off /\ r' = skipn k l
  | _ => True
  end.

(* zero-length progress allowed (ref_spaces with the option off) *)
Definition advances0 {A} (off : nat) (l : list N) (r : rres A) : Prop :=
  match r with
  | ROk _ o r' => exists k, k <= length l /\ o = k + off /\ r' = skipn k l
  | _ => True
  end.

Lemma skipn_S_cons {A} k (b : A) r : skipn (S k) (b :: r) = skipn k r.
Proof. reflexivity. Qed.

Lemma advances_weaken {A} off l (x : rres A) : advances off l x -> advances0 off l x.
Proof.
  destruct x as [a o r'| |]; cbn [advances advances0]; auto.
  intros [k (H0 & Hk & -> & ->)]. exists k. auto.
Qed.
Lemma advances0_refl {A} (a : A) off l : advances0 off l (ROk a off l).
Proof. exists 0. split; [lia|split; reflexivity]. Qed.

Lemma adv_app {A} off e r (x : rres A) :
  e <> [] -> advances0 (length e + off) r x -> advances off (e ++ r) x.
Proof.
  destruct x as [a o r'| |]; cbn [advances advances0]; auto.
  intros He [k (Hk & -> & ->)]. exists (length e + k).
  rewrite app_length, skipn_app, (skipn_all2 e) by lia.
  replace (length e + k - length e) with k by lia.
  destruct e; [congruence|]. cbn [length]. split; [lia|split; [lia|split; [lia|reflexivity]]].
Qed.
Lemma adv0_app {A} off e r (x : rres A) :
  advances0 (length e + off) r x -> advances0 off (e ++ r) x.
Proof.
  intros H. destruct e; [exact H|]. apply advances_weaken, adv_app; [discriminate|exact H].
Qed.
Lemma advances_app {A} off e r (x : rres A) :
  advances (length e + off) r x -> advances off (e ++ r) x.
Proof.
  intros H. destruct e; [exact H|]. apply adv_app; [discriminate|apply advances_weaken, H].
Qed.
Lemma advances_cons' {A} off b r (x : rres A) :
  advances (S off) r x -> advances off (b :: r) x.
Proof. apply (advances_app off [b]). Qed.

Lemma adv_ok {A} (a : A) off q r o : q <> [] -> o = length q + off -> advances off (q ++ r) (ROk a o r).
Proof. intros Hq ->. apply adv_app; [exact Hq|apply advances0_refl]. Qed.

Lemma advances0_inv {A} off l (a : A) o r :
  advances0 off l (ROk a o r) -> exists q, l = q ++ r /\ o = length q + off.
Proof.
  intros [k (Hk & -> & ->)]. exists (firstn k l).
  rewrite firstn_skipn, firstn_length_le by exact Hk. split; reflexivity.
Qed.

Lemma rbind_adv {A B} off l (x : rres A) (g : A -> B) :
  advances off l x -> advances off l (rbind x (fun a o r => ROk (g a) o r)).
Proof. destruct x; cbn [rbind advances]; auto. Qed.
Lemma rbind_adv0 {A B} off l (x : rres A) (g : A -> nat -> list N -> rres B) :
  advances0 off l x ->
  (forall a o r, x = ROk a o r -> advances0 o r (g a o r)) ->
  advances0 off l (rbind x g).
Proof.
  destruct x as [a o r| |]; cbn [rbind]; auto.
  intros H Hg. apply advances0_inv in H as (q & -> & ->). apply adv0_app, (Hg a), eq_refl.
Qed.

Lemma then_adv {A B} off l (x : rres A) (g : nat -> list N -> rres B) :
  advances0 off l x -> (forall o r, advances o r (g o r)) ->
  advances0 off l (rbind x (fun _ o r => g o r)).
Proof. intros Hx Hg. apply rbind_adv0; [exact Hx|]. intros _ o r _. apply advances_weaken, Hg. Qed.

Lemma eol_at_adv {A} (a : A) off l o r : eol_at off l = EolOk o r -> advances off l (ROk a o r).
Proof.
  intros E. apply eol_at_ok in E as (e & He & -> & ->). apply adv_ok; [apply eol_ne, He|reflexivity].
Qed.

Section Facts.
Variable hc : hcfg.

Lemma ref_invalid_adv ign e off l : advances off l (ref_invalid ign e off l).
Proof.
  destruct (ref_invalid ign e off l) as [x o r| |] eqn:E; [|exact I|exact I].
  apply ref_invalid_ok in E as (_ & _ & junk & el & -> & _ & He & ->).
  apply advances_app, adv_ok; [apply eol_ne, He|lia].
Qed.

Lemma ref_value_lines_adv voff racc off l : advances off l (ref_value_lines hc voff racc off l).
Proof.
  apply (ref_value_lines_ind hc voff (fun _ off l x => advances off l x)).
  - intros. exact I.
  - intros. exact I.
  - intros _ o b r x _ IH. apply advances_cons', IH.
  - intros racc' o e r He _. apply adv_ok; [apply eol_ne, He|reflexivity].
  - intros _ o e b r x _ _ _ IH. apply advances_app, IH.
  - intros _ o b r _ _ _. apply rbind_adv, ref_invalid_adv.
Qed.

Lemma ref_value_start_adv off l : advances off l (ref_value_start hc off l).
Proof.
  apply (ref_value_start_ind hc (fun off l x => advances off l x)).
  - intros. exact I.
  - intros. exact I.
  - intros o b r x _ IH. apply advances_cons', IH.
  - intros o b r _ _. apply ref_value_lines_adv.
  - intros o e r He _. apply adv_ok; [apply eol_ne, He|reflexivity].
  - intros o e b r x _ _ _ IH. apply advances_app, IH.
  - intros o b r _ _ _. apply rbind_adv, ref_invalid_adv.
Qed.

Lemma ref_value_adv name off l : advances off l (ref_value hc name off l).
Proof. apply rbind_adv, ref_value_start_adv. Qed.

Lemma ref_header_line_adv first off l :
  advances off l (ref_header_line hc first off l).
Proof.
  apply ref_header_line_cases; [exact I|exact I|..].
  - intros o r E. exact (eol_at_adv _ _ _ _ _ E).
  - intros w r -> Hw. apply adv_ok; [exact Hw|reflexivity].
  - intros pre r ->. apply advances_app, ref_invalid_adv.
  - intros name w r -> Hn _. apply adv_app; [exact Hn|].
    apply adv0_app, (adv0_app _ [58%N]), advances_weaken, ref_value_adv.
Qed.
End Facts.

Lemma ref_empty_lines_adv off l : advances0 off l (ref_empty_lines off l).
Proof.
  revert off l. apply ref_empty_lines_ind; [intros; exact I..| |intros; apply advances0_refl].
  intros off e r x _ IH. apply adv0_app, IH.
Qed.

Lemma ref_spaces_adv on off l : advances0 off l (ref_spaces on off l).
Proof.
  unfold ref_spaces. destruct on; [|apply advances0_refl].
  destruct (span (is 32) l) as [s r] eqn:Es. apply span_eq in Es as [-> _].
  destruct r; [exact I|apply adv0_app, advances0_refl].
Qed.

Lemma span_then_one {A} p l off (a : A) x b r' :
  span p l = (x, b :: r') -> advances off l (ROk a (S (length x) + off) r').
Proof.
  intros Es. apply span_eq in Es as [-> _]. change (x ++ b :: r') with (x ++ [b] ++ r'). rewrite app_assoc.
  apply adv_ok; [apply not_eq_sym, app_cons_not_nil|rewrite last_length; reflexivity].
Qed.

Lemma ref_method_adv off l : advances off l (ref_method off l).
Proof.
  unfold ref_method. destruct (span tchar l) as [m [|b r']] eqn:Es; [exact I|].
  destruct (null m); [exact I|]. destruct (is 32 b); [|exact I].
  apply (span_then_one _ _ _ _ _ _ _ Es).
Qed.
Lemma ref_target_adv off l : advances off l (ref_target off l).
Proof.
  unfold ref_target. destruct (span uri_char l) as [m [|b r']] eqn:Es; [exact I|].
  destruct (negb (is 32 b)); [exact I|]. destruct (null m); [exact I|].
  destruct (negb (utf8_valid m)); [exact I|]. apply (span_then_one _ _ _ _ _ _ _ Es).
Qed.
Lemma ref_version_adv off l : advances off l (ref_version off l).
Proof.
  unfold ref_version. rewrite take_spec. destruct (Nat.leb_spec 8 (length l)) as [H|H].
  - assert (Ok : forall v : N, advances off l (ROk v (8 + off) (skipn 8 l))).
    { intros v. exists 8. split; [lia|split; [exact H|split; reflexivity]]. }
    destruct (list_eqb _ _); [apply Ok|]. destruct (list_eqb _ _); [apply Ok|exact I].
  - destruct (is_prefix l HTTP1dot); exact I.
Qed.
Lemma ref_eol_adv e off l : advances off l (ref_eol e off l).
Proof.
  rewrite ref_eol_eq. unfold on_eol.
  destruct (eol_at off l) as [o r| | |] eqn:E; [exact (eol_at_adv _ _ _ _ _ E)|exact I|exact I|exact I].
Qed.
Lemma ref_sp_adv e off l : advances off l (ref_sp e off l).
Proof.
  unfold ref_sp. destruct l as [|b r]; [exact I|]. destruct (is 32 b); [|exact I].
  apply (adv_ok tt off [b]); [discriminate|reflexivity].
Qed.
Lemma ref_code_adv off l : advances off l (ref_code off l).
Proof.
  unfold ref_code. destruct l as [|a r1]; [exact I|]. destruct (negb (digit a)); [exact I|].
  destruct r1 as [|b r2]; [exact I|]. destruct (negb (digit b)); [exact I|].
  destruct r2 as [|c r3]; [exact I|]. destruct (negb (digit c)); [exact I|].
  apply (adv_ok _ off [a; b; c]); [discriminate|reflexivity].
Qed.

Lemma ref_reason_adv off l : advances off l (ref_reason off l).
Proof.
  unfold ref_reason. destruct (span reason_char l) as [t r] eqn:Es. apply span_eq in Es as [-> _].
  apply advances_app, rbind_adv, ref_eol_adv.
Qed.

Lemma ref_after_code_adv ms off l : advances0 off l (ref_after_code ms off l).
Proof.
  unfold ref_after_code. destruct l as [|b r]; [exact I|].
  destruct (is 32 b).
  - apply (adv0_app off [b]), rbind_adv0; [apply ref_spaces_adv|].
    intros a o r' _. apply advances_weaken, ref_reason_adv.
  - destruct (is 13 b || is 10 b); [|exact I]. apply advances_weaken, rbind_adv, ref_eol_adv.
Qed.

Lemma ref_request_line_adv ms buf : advances0 0 buf (snd (ref_request_line ms buf)).
Proof.
  rewrite ref_request_line_snd. apply then_adv; [|apply ref_eol_adv].
  apply rbind_adv0; [|intros; apply then_adv; [apply ref_spaces_adv|apply ref_version_adv]].
  apply rbind_adv0; [|intros; apply then_adv; [apply ref_spaces_adv|apply ref_target_adv]].
  apply then_adv; [apply ref_empty_lines_adv|apply ref_method_adv].
Qed.

Lemma ref_status_line_adv ms buf : advances0 0 buf (snd (ref_status_line ms buf)).
Proof.
  rewrite ref_status_line_snd. apply rbind_adv0; [|intros; apply advances0_refl].
  apply rbind_adv0; [|intros; apply ref_after_code_adv].
  apply rbind_adv0; [apply then_adv; [apply ref_empty_lines_adv|apply ref_version_adv]|].
  intros. apply then_adv; [|apply ref_code_adv].
  apply rbind_adv0; [apply advances_weaken, ref_sp_adv|intros; apply ref_spaces_adv].
Qed.

Lemma ref_header_line_step hc first off l x o r :
  ref_header_line hc first off l = ROk x o r -> off < o /\ o + length r = off + length l.
Proof.
  intros El. pose proof (ref_header_line_adv hc first off l) as A. rewrite El in A.
  destruct A as (k & Hk0 & Hk & -> & ->). rewrite skipn_length. lia.
Qed.

Definition block_inv (cap : nat) (hs : list (sl * sl)) (off : nat) (l : list N)
           (res : status * list (sl * sl)) : Prop :=
  (exists more, snd res = hs ++ more) /\
  (length hs <= cap -> length (snd res) <= cap) /\
  (forall o, fst res = Complete o -> off < o <= off + length l).

Lemma ref_header_block_inv hc cap fuel hs off l :
  block_inv cap hs off l (ref_header_block hc fuel cap hs off l).
Proof.
  assert (Stop : forall hs off l st, (forall o, st = Complete o -> off < o <= off + length l) ->
            block_inv cap hs off l (st, hs)).
  { intros hs0 off0 l0 st Hst. split; [exists []; symmetry; apply app_nil_r|]. split; [auto|exact Hst]. }
  assert (Step : forall hs more off l x o r res, ref_header_line hc (null hs) off l = ROk x o r ->
            (length hs <= cap -> length (hs ++ more) <= cap) ->
            block_inv cap (hs ++ more) o r res -> block_inv cap hs off l res).
  { intros hs0 m1 off0 l0 x o r res El Hc ([m2 Hpre] & Hlen & Hbd). apply ref_header_line_step in El.
    split; [exists (m1 ++ m2); rewrite Hpre; symmetry; apply app_assoc|].
    split; [auto|]. intros o' Ho'. specialize (Hbd o' Ho'). lia. }
  apply (ref_header_block_ind hc cap (fun _ => block_inv cap)); try (intros; apply Stop; discriminate).
  - intros _ hs0 off0 l0 o r El. apply Stop. intros o' [= <-]. apply ref_header_line_step in El. lia.
  - intros _ hs0 off0 l0 o r res El IH. apply (Step hs0 [] _ _ _ _ _ _ El); rewrite app_nil_r; [auto|exact IH].
  - intros _ hs0 off0 l0 n v o r res El Hlt. apply (Step hs0 [(n, v)] _ _ _ _ _ _ El).
    intros _. rewrite app_length. cbn [length]. lia.
Qed.
Lemma ref_headers_inv hc cap off l : block_inv cap [] off l (ref_headers hc cap off l).
Proof. apply ref_header_block_inv. Qed.
