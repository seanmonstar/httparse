(* Proofs/Chunk.v -- parse_chunk_size (Model.chunk_loop) equals the reference grammar
   Spec.ref_chunk on every buffer, in both build profiles; the multiply-add never
   reaches 2^64 and the debug-only guard is dead. *)
From Coq Require Import List NArith ZArith Lia Bool ZifyBool ZifyN ZifyNat.
From HV Require Import Cursor Model Spec.
From HV.Proofs Require Import RefInd.
Import ListNotations.

Definition ICS : status * N := (Error InvalidChunkSize, 0%N).
Definition PART : status * N := (Partial, 0%N).

Definition view (o : out N) : status * N :=
  match o with
  | Done size c => (Complete (apos c), size)
  | Part => PART
  | Fail e => (Error e, 0%N)
  | Fault f => (Faulted f, 0%N)
  end.

(* The loop is in one of three phases: in the digits of the size, in the blanks after them,
   or in an extension; the fourth, `AfterCr`, is the byte after the CR, which the loop reads without another turn.
   `count` is the number of digits read; it only changes in `Dig`. *)
Inductive phase := Dig | Ws | Ext | AfterCr.
Inductive move := Digit | Go (ph : phase) | Fin | Bad.

Definition after_size (b : N) : move :=
  if is 13 b then Go AfterCr else if is 59 b then Go Ext else if ws b then Go Ws else Bad.

Definition cstep (ph : phase) (count : nat) (b : N) : move :=
  match ph with
  | Dig => if hexdig b then if Nat.ltb 15 count then Bad else Digit
           else if Nat.eqb count 0 then Bad else after_size b
  | Ws => after_size b
  | Ext => if is 13 b then Go AfterCr else Go Ext
  | AfterCr => if is 10 b then Fin else Bad
  end.

Fixpoint cspec (ph : phase) (count : nat) (size : N) (off : nat) (l : list N) : status * N :=
  match l with
  | [] => PART
  | b :: r =>
      match cstep ph count b with
      | Digit => cspec Dig (S count) (size * 16 + hexval b)%N (S off) r
      | Go ph' => cspec ph' count size (S off) r
      | Fin => (Complete (S off), size)
      | Bad => ICS
      end
  end.

(* the loop's two flags in each phase *)
Definition is_dig (ph : phase) : bool := match ph with Dig => true | _ => false end.
Definition is_ext (ph : phase) : bool := match ph with Ext => true | _ => false end.

Section Model.
Variable dbg : bool.

Definition run (f : nat) (ph : phase) (count : nat) (size : N) : P N :=
  match ph with
  | AfterCr => b' <- next ;; if is LF b' then ret size else fail InvalidChunkSize
  | _ => chunk_loop dbg f size (is_dig ph) (is_ext ph) count
  end.

(* the three digit arms compute `hexval` (the subtractions are truncated ones on both sides) *)
Lemma hexval_arms b :
  hexval b = (if is_digit b then b - 48 else if hex_lower b then b + 10 - 97 else b + 10 - 65)%N.
Proof.
  unfold hexval, hex_lower. change (digit b) with (is_digit b).
  destruct (is_digit b); [reflexivity|]. destruct (in_range 97 102 b); lia.
Qed.
Lemma hexval_lt b : hexdig b = true -> (hexval b < 16)%N.
Proof.
  unfold hexdig, hexval, digit, in_range. intros H.
  destruct ((48 <=? b)%N && (b <=? 57)%N) eqn:E1; [lia|].
  destruct ((97 <=? b)%N && (b <=? 102)%N) eqn:E2; lia.
Qed.

(* One turn of the loop on a byte b: its three digit arms are one arm on `hexdig b` with the
   digit `hexval b`; the rest is the loop's own list of cases, with the cursor moved past b. *)
Lemma chunk_loop_eq f size ics ie count p t b r :
  chunk_loop dbg (S f) size ics ie count (mkcur p t (b :: r)) =
  (if hexdig b && ics then
     match chunk_digit dbg count size (hexval b) with
     | inl (Some (cnt, sz)) => chunk_loop dbg f sz ics ie cnt
     | inl None => fail InvalidChunkSize
     | inr flt => fault_ flt
     end
   else if (is 13 b || is 59 b || ws b) && Nat.eqb count 0 then fail InvalidChunkSize
   else if is 13 b then b' <- next ;; if is LF b' then ret size else fail InvalidChunkSize
   else if is 59 b && negb ie then chunk_loop dbg f size false true count
   else if ws b && negb ie && negb ics then chunk_loop dbg f size ics ie count
   else if ws b && ics then chunk_loop dbg f size false ie count
   else if ie then chunk_loop dbg f size ics ie count
   else fail InvalidChunkSize) (mkcur p (b :: t) r).
Proof.
  cbn [chunk_loop]. unfold bind at 1. unfold next at 1. cbn [rest pre tokrev].
  unfold CR, HT, SP. change (is_ws b) with (ws b).
  replace (is 13 b || is 59 b || is 9 b || is 32 b) with (is 13 b || is 59 b || ws b)
    by (unfold ws; rewrite (orb_comm (is 32 b)), !orb_assoc; reflexivity).
  destruct ics; [|rewrite !andb_false_r; reflexivity].
  rewrite !andb_true_r. change (hexdig b) with (is_digit b || hex_lower b || hex_upper b).
  rewrite hexval_arms.
  destruct (is_digit b); [reflexivity|]. destruct (hex_lower b); [reflexivity|].
  destruct (hex_upper b); reflexivity.
Qed.

Lemma chunk_digit_ok count size d :
  count <= 15 -> (size < 16 ^ N.of_nat count)%N -> (d < 16)%N ->
  chunk_digit dbg count size d = inl (Some (S count, (size * 16 + d)%N)).
Proof.
  intros Hc Hs Hd. unfold chunk_digit, two64.
  assert (Hs' : (size < 16 ^ 15)%N).
  { eapply N.lt_le_trans; [exact Hs|]. apply N.pow_le_mono_r; lia. }
  change (16 ^ 15)%N with 1152921504606846976%N in Hs'.
  change (18446744073709551616 / 16 - 1)%N with 1152921504606846975%N.
  rewrite (proj2 (Nat.ltb_ge 15 count) Hc), (proj2 (N.ltb_ge _ _)), andb_false_r by lia.
  rewrite !(proj2 (N.leb_gt _ _)) by lia. reflexivity.
Qed.
Lemma chunk_digit_over count size d : 15 < count -> chunk_digit dbg count size d = inl None.
Proof. intros H. unfold chunk_digit. destruct (Nat.ltb_spec 15 count); [reflexivity|lia]. Qed.

Lemma pow16_step count size d :
  (size < 16 ^ N.of_nat count)%N -> (d < 16)%N -> (size * 16 + d < 16 ^ N.of_nat (S count))%N.
Proof. intros Hs Hd. rewrite Nat2N.inj_succ, N.pow_succ_r'. lia. Qed.

(* Past the digits and not yet in an extension, a turn of the loop is `after_size b` whichever way the
   digit flag stands: that is `cspec Ws`. *)
Lemma after_size_model f size ics count p t b r :
  hexdig b && ics = false -> Nat.eqb count 0 = false ->
  (forall ph', view (run f ph' count size (mkcur p (b :: t) r)) = cspec ph' count size (S (length t + p)) r) ->
  view (chunk_loop dbg (S f) size ics false count (mkcur p t (b :: r))) = cspec Ws count size (length t + p) (b :: r).
Proof.
  intros Hd E0 Hgo. rewrite chunk_loop_eq, Hd, E0, andb_false_r. cbn [cspec cstep negb]. unfold after_size.
  destruct (is 13 b); [exact (Hgo AfterCr)|].
  destruct (is 59 b); [exact (Hgo Ext)|].
  destruct (ws b); [|reflexivity]. destruct ics; exact (Hgo Ws).
Qed.

(* `count` matters only through the loop's test `count == 0`, which can fire in `Dig` only *)
Lemma cspec_model : forall l f p t ph count size,
  length l < f -> (size < 16 ^ N.of_nat count)%N -> ph = Dig \/ Nat.eqb count 0 = false ->
  view (run f ph count size (mkcur p t l)) = cspec ph count size (length t + p) l.
Proof.
  induction l as [|b r IH]; intros f p t ph count size Hf Hs Hc; (destruct f as [|f]; [inversion Hf|]).
  - destruct ph; reflexivity.
  - apply Nat.succ_lt_mono in Hf. specialize (IH f p (b :: t)).
    pose proof (fun E0 ph' => IH ph' count size Hf Hs (or_intror E0)) as Hgo.
    destruct ph; cbn [run cspec cstep].
    + (* `Dig` *)
      destruct (hexdig b) eqn:Eh; [|destruct (Nat.eqb count 0) eqn:E0 in |- *].
      * rewrite chunk_loop_eq, Eh. cbn [is_dig andb].
        destruct (Nat.ltb_spec 15 count) as [Hlt|Hle].
        -- rewrite chunk_digit_over by exact Hlt. reflexivity.
        -- pose proof (hexval_lt b Eh) as Hd. rewrite chunk_digit_ok by assumption.
           apply (IH Dig); [exact Hf|apply pow16_step; assumption|left; reflexivity].
      * (* no digit before it *)
        rewrite chunk_loop_eq, Eh, E0. cbn [is_dig is_ext andb negb].
        destruct (is 13 b), (is 59 b), (ws b); reflexivity.
      * apply after_size_model; [rewrite Eh; reflexivity|exact E0|exact (Hgo E0)].
    + (* `Ws` *)
      destruct Hc as [Hc|E0]; [discriminate Hc|].
      apply after_size_model; [apply andb_false_r|exact E0|exact (Hgo E0)].
    + (* `Ext` *)
      destruct Hc as [Hc|E0]; [discriminate Hc|].
      rewrite chunk_loop_eq, E0. cbn [is_dig is_ext andb negb]. rewrite !andb_false_r.
      destruct (is 13 b); [exact (Hgo E0 AfterCr)|exact (Hgo E0 Ext)].
    + (* `AfterCr` *)
      unfold bind, next; cbn [rest]. unfold LF. destruct (is 10 b); reflexivity.
Qed.

Theorem chunk_model_spec : forall buf,
  parse_chunk_size dbg buf = cspec Dig 0 0%N 0 buf.
Proof.
  intros buf.
  exact (cspec_model buf (S (length buf)) 0 [] Dig 0 0%N (Nat.lt_succ_diag_r _) eq_refl (or_introl eq_refl)).
Qed.
End Model.

Lemma cspec_span q ph count size : (forall b, q b = true -> cstep ph count b = Go ph) ->
  forall l off, cspec ph count size off l =
                let (a, r) := span q l in cspec ph count size (length a + off) r.
Proof.
  intros Hq. induction l as [|b l IH]; intros off; [reflexivity|]. cbn [span].
  destruct (q b) eqn:E; [|reflexivity].
  cbn [cspec]. rewrite (Hq b E), IH. destruct (span q l) as [a r].
  cbn [length]. rewrite Nat.add_succ_r. reflexivity.
Qed.

Lemma after_size_ws b : ws b = true -> after_size b = Go Ws.
Proof. intros H. apply orb_prop in H as [H|H]; apply is_eq in H; subst b; reflexivity. Qed.

Lemma cspec_lf count size off l :
  cspec AfterCr count size off l =
  match l with [] => PART | d :: _ => if is 10 d then (Complete (S off), size) else ICS end.
Proof. destruct l as [|d r]; [reflexivity|]. cbn [cspec cstep]. destruct (is 10 d); reflexivity. Qed.

Lemma hex_value_app ds d acc :
  fold_left (fun a x => (a * 16 + hexval x)%N) (ds ++ [d]) acc
  = (fold_left (fun a x => (a * 16 + hexval x)%N) ds acc * 16 + hexval d)%N.
Proof. rewrite fold_left_app. reflexivity. Qed.

Lemma cspec_digits : forall l count size off, count <= 16 ->
  cspec Dig count size off l =
  let (ds, r1) := span hexdig l in
  if Nat.ltb 16 (count + length ds) then ICS
  else match r1 with
       | [] => PART
       | _ :: _ =>
           if Nat.eqb (count + length ds) 0 then ICS
           else cspec Ws (count + length ds) (fold_left (fun a x => (a * 16 + hexval x)%N) ds size)
                         (length ds + off) r1
       end.
Proof.
  induction l as [|b r IH]; intros count size off Hc.
  - cbn [cspec span length]. destruct (Nat.ltb_spec 16 (count + 0)); [lia|reflexivity].
  - cbn [cspec span cstep]. destruct (hexdig b) eqn:Eh.
    + destruct (Nat.ltb_spec 15 count) as [H15|H15].
      * destruct (span hexdig r) as [ds r1]. cbn [length].
        destruct (Nat.ltb_spec 16 (count + S (length ds))); [reflexivity|lia].
      * rewrite IH by lia. destruct (span hexdig r) as [ds r1]. cbn [length fold_left].
        rewrite !Nat.add_succ_r. reflexivity.
    + cbn [length fold_left]. rewrite Nat.add_0_r.
      destruct (Nat.ltb_spec 16 count); [lia|]. destruct (Nat.eqb count 0); reflexivity.
Qed.

(* ref_chunk's local `crlf o (c :: l)` is `cspec AfterCr _ (hex_value ds) (S o) l` as `cspec_lf` puts it *)
Lemma ref_chunk_digits buf :
  ref_chunk buf =
  let (ds, r1) := span hexdig buf in
  if Nat.ltb 16 (length ds) then ICS
  else match r1 with
       | [] => PART
       | _ :: _ => if null ds then ICS else cspec Ws (length ds) (hex_value ds) (length ds) r1
       end.
Proof.
  unfold ref_chunk. destruct (span hexdig buf) as [ds r1].
  destruct (Nat.ltb 16 (length ds)); [reflexivity|].
  destruct r1 as [|b0 r1']; [reflexivity|]. destruct (null ds); [reflexivity|].
  rewrite (cspec_span ws Ws) by exact after_size_ws.
  pose proof (span_stop ws (b0 :: r1')) as Hw. destruct (span ws (b0 :: r1')) as [w r2].
  destruct r2 as [|b r3]; [reflexivity|]. specialize (Hw b r3 eq_refl).
  cbn [cspec cstep]. unfold after_size. rewrite Hw.
  destruct (is 13 b); [symmetry; apply cspec_lf|]. destruct (is 59 b); [|reflexivity].
  rewrite (cspec_span (fun x => negb (is 13 x)) Ext)
    by (intros x Hx; cbn [cstep]; apply negb_true_iff in Hx; rewrite Hx; reflexivity).
  pose proof (span_stop (fun x => negb (is 13 x)) r3) as He.
  destruct (span (fun x => negb (is 13 x)) r3) as [e r4].
  destruct r4 as [|c r5]; [reflexivity|]. specialize (He c r5 eq_refl). apply negb_false_iff in He.
  cbn [cspec cstep]. rewrite He, Nat.add_succ_r. symmetry. apply cspec_lf.
Qed.

Theorem ref_chunk_spec : forall buf, ref_chunk buf = cspec Dig 0 0%N 0 buf.
Proof.
  intros buf. rewrite ref_chunk_digits, cspec_digits by apply Nat.le_0_l.
  destruct (span hexdig buf) as [ds r1]. rewrite Nat.add_0_r. destruct ds; reflexivity.
Qed.

(* C09 *)
Theorem chunk_ref_eq : forall dbg buf, parse_chunk_size dbg buf = ref_chunk buf.
Proof. intros. rewrite chunk_model_spec, ref_chunk_spec. reflexivity. Qed.

Lemma hex_value_bound : forall ds acc k, forallb hexdig ds = true -> (acc < 16 ^ N.of_nat k)%N ->
  (fold_left (fun a x => (a * 16 + hexval x)%N) ds acc < 16 ^ N.of_nat (length ds + k))%N.
Proof.
  induction ds as [|d r IH]; intros acc k H Hacc; [exact Hacc|].
  cbn [forallb] in H. apply andb_prop in H as [Hd Hr]. cbn [fold_left length].
  rewrite Nat.add_succ_comm. apply (IH _ _ Hr). apply pow16_step; [exact Hacc|apply hexval_lt; exact Hd].
Qed.

Lemma cspec_complete : forall l ph count size off n sz, is_dig ph = false ->
  cspec ph count size off l = (Complete n, sz) -> sz = size /\ n <= off + length l.
Proof.
  induction l as [|b l IH]; intros ph count size off n sz Hp H; [discriminate H|].
  cbn [length]. rewrite Nat.add_succ_r. change (S (off + length l)) with (S off + length l).
  cbn [cspec] in H. destruct ph; [discriminate Hp|..]; cbn [cstep] in H; unfold after_size in H.
  - destruct (is 13 b); [exact (IH AfterCr _ _ _ _ _ eq_refl H)|].
    destruct (is 59 b); [exact (IH Ext _ _ _ _ _ eq_refl H)|].
    destruct (ws b); [exact (IH Ws _ _ _ _ _ eq_refl H)|discriminate H].
  - destruct (is 13 b); [exact (IH AfterCr _ _ _ _ _ eq_refl H)|exact (IH Ext _ _ _ _ _ eq_refl H)].
  - destruct (is 10 b); [|discriminate H]. injection H as <- <-. split; [reflexivity|apply Nat.le_add_r].
Qed.

Theorem ref_chunk_complete : forall buf n size,
  ref_chunk buf = (Complete n, size) ->
  let ds := fst (span hexdig buf) in
  size = hex_value ds /\ 1 <= length ds <= 16 /\ (size < 2 ^ 64)%N /\ n <= length buf.
Proof.
  intros buf n size H. cbn zeta. rewrite ref_chunk_digits in H.
  pose proof (span_forallb hexdig buf) as Hall. pose proof (span_app hexdig buf) as Hb.
  destruct (span hexdig buf) as [ds r1]. cbn [fst snd] in *.
  destruct (Nat.ltb_spec 16 (length ds)) as [|H16]; [discriminate|].
  destruct r1 as [|b0 r1']; [discriminate|].
  destruct ds as [|d0 ds']; [discriminate|]. cbn [null] in H. set (ds := d0 :: ds') in *.
  assert (H1 : 1 <= length ds) by apply Nat.lt_0_succ.
  apply cspec_complete in H as [-> Hn]; [|reflexivity].
  split; [reflexivity|]. split; [split; [exact H1|exact H16]|].
  split; [|rewrite Hb, app_length; exact Hn].
  change (2 ^ 64)%N with (16 ^ N.of_nat 16)%N.
  eapply N.lt_le_trans; [exact (hex_value_bound ds 0%N 0 Hall eq_refl)|].
  apply N.pow_le_mono_r; lia.
Qed.

Lemma cspec_no_fault : forall l ph count size off f, fst (cspec ph count size off l) <> Faulted f.
Proof.
  induction l as [|b l IH]; intros ph count size off f; [discriminate|]. cbn [cspec].
  destruct (cstep ph count b); [apply IH|apply IH|discriminate|discriminate].
Qed.

Theorem ref_chunk_no_fault : forall buf f, fst (ref_chunk buf) <> Faulted f.
Proof. intros buf f. rewrite ref_chunk_spec. apply cspec_no_fault. Qed.

(* stability under appending bytes (C02) *)
Definition final_c (r : status * N) : Prop :=
  match fst r with Complete _ | Error _ => True | _ => False end.

Lemma cspec_stable : forall l ph count size off ext,
  final_c (cspec ph count size off l) -> cspec ph count size off (l ++ ext) = cspec ph count size off l.
Proof.
  induction l as [|b l IH]; intros ph count size off ext H; [destruct H|]. cbn [cspec app] in *.
  destruct (cstep ph count b); [apply IH; exact H|apply IH; exact H|reflexivity|reflexivity].
Qed.

Theorem chunk_stable : forall dbg buf ext,
  final_c (parse_chunk_size dbg buf) -> parse_chunk_size dbg (buf ++ ext) = parse_chunk_size dbg buf.
Proof. intros dbg buf ext. rewrite !chunk_model_spec. apply cspec_stable. Qed.
