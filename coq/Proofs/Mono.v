(* Mono.v -- the cursor only moves forward: every stage of the model that returns normally leaves
   the absolute position where it was or further on.  Used by the tie proofs to discharge the
   `end - start` underflow guards the translator emits for usize subtraction. *)
From Coq Require Import List NArith Bool Lia.
From HV Require Import Cursor Scan Model.
Import ListNotations.

(* `total` is conserved (the cursor never leaves the buffer it was created on) and the
   absolute position never decreases *)
Definition total (c : cur) : nat := pre c + length (tokrev c) + length (rest c).
Definition step (c c' : cur) : Prop := apos c <= apos c' /\ total c = total c'.
Lemma step_refl c : step c c. Proof. split; lia. Qed.
Lemma step_trans a b c : step a b -> step b c -> step a c.
Proof. intros [H1 H2] [H3 H4]. split; lia. Qed.

Definition mono {A} (m : P A) : Prop := forall c a c', m c = Done a c' -> step c c'.

Ltac step_solve := unfold step, apos, total, commit; cbn [tokrev pre rest length]; lia.

(* ret, peek, pos, remaining, peek_n *)
Lemma mono_read {A} (f : cur -> A) : mono (fun c => Done (f c) c).
Proof. intros c a c' H. injection H as _ <-. apply step_refl. Qed.
(* fail, part, fault_ *)
Lemma mono_stop {A} (m : P A) : (forall c, match m c with Done _ _ => False | _ => True end) -> mono m.
Proof. intros Hm c a c' H. specialize (Hm c). rewrite H in Hm. destruct Hm. Qed.
(* slice *)
Lemma mono_commit_fun {A} (f : cur -> A) : mono (fun c0 => Done (f c0) (commit c0)).
Proof. intros [p t r] a c' H. injection H as _ <-. step_solve. Qed.
Lemma mono_bind {A B} (m : P A) (k : A -> P B) : mono m -> (forall a, mono (k a)) -> mono (bind m k).
Proof.
  intros Hm Hk c b c' H. unfold bind in H. destruct (m c) as [a c1| | |] eqn:Em; try discriminate.
  exact (step_trans _ _ _ (Hm _ _ _ Em) (Hk a _ _ _ H)).
Qed.
Lemma mono_if {A} (b : bool) (p q : P A) : mono p -> mono q -> mono (if b then p else q).
Proof. destruct b; auto. Qed.
Lemma mono_match_option {A B} (o : option A) (f : A -> P B) (n : P B) :
  (forall a, mono (f a)) -> mono n -> mono (match o with Some a => f a | None => n end).
Proof. destruct o; auto. Qed.
Lemma mono_cur_dep {A} (m : cur -> P A) : (forall c0, mono (m c0)) -> mono (fun c => m c c).
Proof. intros H c a c' E. exact (H c c a c' E). Qed.

Lemma mono_peek_ahead n : mono (peek_ahead n).
Proof.
  intros c a c' H. unfold peek_ahead in H. destruct (drop n (rest c)); [|discriminate].
  injection H as _ <-. apply step_refl.
Qed.
Lemma mono_next : mono next.
Proof.
  intros [p t r] a c' H. unfold next in H. cbn [rest] in H. destruct r as [|b r]; [discriminate|].
  injection H as _ <-. step_solve.
Qed.
Lemma shift_len : forall n tk l tk' l', shift n tk l = Some (tk', l') ->
  length tk' = n + length tk /\ length tk' + length l' = length tk + length l.
Proof.
  induction n as [|n IH]; intros tk l tk' l' H; cbn [shift] in H.
  - inversion H. subst. split; lia.
  - destruct l as [|x r]; [discriminate|]. apply IH in H. cbn [length] in H |- *. lia.
Qed.
Lemma mono_advance n : mono (advance n).
Proof.
  intros [p t r] a c' H. unfold advance in H. cbn [tokrev rest pre] in H.
  destruct (shift n t r) as [[tk r']|] eqn:Es; [|discriminate]. injection H as _ <-.
  apply shift_len in Es. step_solve.
Qed.
Lemma mono_slice : mono slice.
Proof. exact (mono_commit_fun _). Qed.
Lemma mono_slice_skip k : mono (slice_skip k).
Proof.
  intros [p t r] a c' H. unfold slice_skip in H. cbn [tokrev] in H. destruct (drop k t); [|discriminate].
  injection H as _ <-. step_solve.
Qed.

(* A stage built from the cursor operations moves forward because its parts do: `auto with mono`
   follows the structure of the term.  The Extern hints hold up to unfolding of the
   operation, which is why they are not Resolve hints. *)
Create HintDb mono.
#[export] Hint Resolve mono_bind mono_if mono_match_option mono_next mono_advance mono_slice_skip
  mono_peek_ahead : mono.
#[export] Hint Extern 1 (mono _) => exact (mono_read _) : mono.
#[export] Hint Extern 1 (mono _) => exact (mono_commit_fun _) : mono.
#[export] Hint Extern 1 (mono _) => apply mono_stop; intro; exact I : mono.
#[export] Hint Extern 3 (mono (match ?x with _ => _ end)) => destruct x : mono.
Ltac mono_auto := auto 20 with mono.

Lemma mono_expect p e : mono (expect p e).
Proof. unfold expect. mono_auto. Qed.
#[export] Hint Resolve mono_expect : mono.

Section WithEnv.
Variable E : env.
Variable fuel : nat.
Variable hc : hcfg.
Hypothesis fwd_name : forall f, mono (s_name E f).
Hypothesis fwd_value : forall f, mono (s_value E f).

Lemma mono_skip_invalid_line f : forall b e, mono (skip_invalid_line f b e).
Proof. induction f as [|f IH]; intros b e; cbn [skip_invalid_line]; mono_auto. Qed.
#[local] Hint Resolve mono_skip_invalid_line : mono.

Lemma mono_handle_invalid b e : mono (handle_invalid fuel hc b e).
Proof. unfold handle_invalid. mono_auto. Qed.

Lemma mono_skip_ws_peek f : mono (skip_ws_peek f).
Proof. induction f as [|f IH]; cbn [skip_ws_peek]; mono_auto. Qed.

Lemma mono_after_name_ws f : forall b, mono (after_name_ws f b).
Proof. induction f as [|f IH]; intros b; cbn [after_name_ws]; mono_auto. Qed.

Lemma mono_fold_check : mono (fold_check hc).
Proof. unfold fold_check. mono_auto. Qed.
#[local] Hint Resolve mono_handle_invalid mono_fold_check : mono.

Lemma mono_value_lines f : mono (value_lines E fuel hc f).
Proof. induction f as [|f IH]; cbn [value_lines]; mono_auto. Qed.
#[local] Hint Resolve mono_value_lines : mono.

Lemma mono_ws_after_colon f : mono (ws_after_colon E fuel hc f).
Proof. induction f as [|f IH]; cbn [ws_after_colon]; mono_auto. Qed.
#[local] Hint Resolve mono_skip_ws_peek mono_after_name_ws mono_ws_after_colon : mono.

Lemma mono_header_line first : mono (header_line E fuel hc first).
Proof. unfold header_line. mono_auto. Qed.

End WithEnv.

Lemma mono_skip_empty_lines f : mono (skip_empty_lines f).
Proof. unfold skip_empty_lines. induction f as [|f IH]; cbn [skip_empty_lines_f]; unfold bump; mono_auto. Qed.
Lemma mono_skip_spaces f : mono (skip_spaces f).
Proof. unfold skip_spaces. induction f as [|f IH]; cbn [skip_spaces_f]; unfold bump; mono_auto. Qed.
Lemma mono_parse_version : mono parse_version.
Proof. unfold parse_version. mono_auto. Qed.
Lemma mono_parse_code : mono parse_code.
Proof. unfold parse_code. mono_auto. Qed.
Lemma mono_parse_reason f : mono (parse_reason f).
Proof.
  unfold parse_reason. generalize false. induction f as [|f IH]; intros seen; cbn [parse_reason_f]; mono_auto.
Qed.
Lemma mono_newline : mono newline.
Proof. unfold newline. mono_auto. Qed.
Lemma mono_space e : mono (space e).
Proof. unfold space. mono_auto. Qed.

Section StartEnv.
Variable E : env.
Variable fuel : nat.
Lemma mono_parse_token_f f : mono (parse_token_f E f).
Proof. induction f as [|f IH]; cbn [parse_token_f]; mono_auto. Qed.
#[local] Hint Resolve mono_parse_token_f : mono.
Lemma mono_parse_token : mono (parse_token E fuel).
Proof. unfold parse_token. mono_auto. Qed.
#[local] Hint Resolve mono_parse_token : mono.
Lemma mono_parse_method : mono (parse_method E fuel).
Proof. unfold parse_method. mono_auto. Qed.
Hypothesis fwd_uri : forall f, mono (s_uri E f).
Lemma mono_parse_uri : mono (parse_uri E fuel).
Proof. unfold parse_uri. mono_auto. Qed.
End StartEnv.

(* the scanner loop shells (Scan.v) move forward whatever the kernel returns *)
Lemma mono_swar_loop f W kernel cls : mono (swar_loop f W kernel cls).
Proof. induction f as [|f IH]; cbn [swar_loop]; mono_auto. Qed.

Lemma mono_swar_name_loop f W cls : mono (swar_name_loop f W cls).
Proof.
  pose proof (mono_cur_dep (fun c0 => advance (first_bad cls (rest c0))) (fun c0 => mono_advance _)).
  induction f as [|f IH]; cbn [swar_name_loop]; mono_auto.
Qed.

Lemma mono_simd_loop f G K R kernel fallback : mono fallback -> mono (simd_loop f G K R kernel fallback).
Proof. intros Hf. induction f as [|f IH]; cbn [simd_loop]; mono_auto. Qed.

(* A stage that never commits leaves the start of the token (`pre`) where it was: `next` only moves bytes
   from `rest` to the token, and binds and branches of such stages are such stages. *)
Definition keeps_pre {A} (m : P A) : Prop :=
  forall c, match m c with Done _ c' => pre c' = pre c | _ => True end.

Lemma keeps_pre_ret {A} (a : A) : keeps_pre (ret a).
Proof. intros c. reflexivity. Qed.
Lemma keeps_pre_fail {A} e : keeps_pre (fail (A:=A) e).
Proof. intros c. exact I. Qed.
Lemma keeps_pre_fault {A} f : keeps_pre (fault_ (A:=A) f).
Proof. intros c. exact I. Qed.
Lemma keeps_pre_next : keeps_pre next.
Proof. intros [p t [|b r]]; [exact I|reflexivity]. Qed.
Lemma keeps_pre_bind {A B} (m : P A) (k : A -> P B) :
  keeps_pre m -> (forall a, keeps_pre (k a)) -> keeps_pre (bind m k).
Proof.
  intros Hm Hk c. unfold bind. specialize (Hm c). destruct (m c) as [a c1| | |]; try exact I.
  specialize (Hk a c1). destruct (k a c1); try exact I. congruence.
Qed.
Lemma keeps_pre_if {A} (b : bool) (p q : P A) : keeps_pre p -> keeps_pre q -> keeps_pre (if b then p else q).
Proof. destruct b; auto. Qed.

Definition env_fwd (E : env) : Prop :=
  (forall f, mono (s_uri E f)) /\ (forall f, mono (s_value E f)) /\ (forall f, mono (s_name E f)).
