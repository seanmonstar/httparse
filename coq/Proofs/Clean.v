(* Proofs/Clean.v -- what the bytes consumed by the reference header parser look like:
   no NUL, no CR that is not followed by LF (C05: head_clean), and no empty line before the
   one that ends the head (C03: framing). *)
From Coq Require Import List NArith PeanoNat Lia Bool.
From HV Require Import Cursor Model Spec Oracle.
From HV.Proofs Require Import Base RefInd RefFacts StartLine.
Import ListNotations.

(* no LF that is immediately followed by an empty line (LF, or CR LF) *)
Fixpoint blank_free (l : list N) : bool :=
  match l with
  | [] => true
  | b :: r =>
      (negb (is 10 b) ||
       match r with
       | c :: r' => negb (is 10 c) && negb (is 13 c && match r' with d :: _ => is 10 d | [] => false end)
       | [] => true
       end) && blank_free r
  end.

Definition not_eol_start (l : list N) : bool :=
  match l with
  | c :: r' => negb (is 10 c) && negb (is 13 c && match r' with d :: _ => is 10 d | [] => false end)
  | [] => true
  end.

Lemma blank_free_cons b r : blank_free (b :: r) = (negb (is 10 b) || not_eol_start r) && blank_free r.
Proof. reflexivity. Qed.

Definition plain (b : N) : bool := negb (is 0 b) && negb (is 13 b) && negb (is 10 b).

Lemma plain_inv b : plain b = true -> is 0 b = false /\ is 13 b = false /\ is 10 b = false.
Proof.
  unfold plain. intros H. apply andb_prop in H as [H H10]. apply andb_prop in H as [H0 H13].
  apply negb_true_iff in H0, H13, H10. split; [exact H0|split; [exact H13|exact H10]].
Qed.

Lemma head_clean_plain b r : plain b = true -> head_clean (b :: r) = head_clean r.
Proof. intros H. apply plain_inv in H as (H0 & H13 & _). cbn [head_clean]. rewrite H0, H13. reflexivity. Qed.
Lemma blank_free_plain b r : plain b = true -> blank_free (b :: r) = blank_free r.
Proof. intros H. apply plain_inv in H as (_ & _ & H10). rewrite blank_free_cons, H10. reflexivity. Qed.
Lemma not_eol_plain b r : plain b = true -> not_eol_start (b :: r) = true.
Proof. intros H. apply plain_inv in H as (_ & H13 & H10). cbn [not_eol_start]. rewrite H10, H13. reflexivity. Qed.

Lemma head_clean_eol e t : is_eol e -> head_clean (e ++ t) = head_clean t.
Proof. intros [->| ->]; reflexivity. Qed.
Lemma blank_free_eol e t : is_eol e -> not_eol_start t = true -> blank_free (e ++ t) = blank_free t.
Proof. intros [->| ->] Hn; cbn [app]; rewrite !blank_free_cons, Hn; reflexivity. Qed.

Record seg (q : list N) : Prop := mkseg {
  seg_clean : head_clean q = true;
  seg_free : blank_free q = true
}.

Lemma seg_nil : seg [].
Proof. split; reflexivity. Qed.
Lemma seg_plain b q : plain b = true -> seg q -> seg (b :: q).
Proof. intros Hb [H1 H2]. split; [rewrite head_clean_plain; auto|rewrite blank_free_plain; auto]. Qed.

Lemma seg_eol e q : is_eol e -> seg q -> not_eol_start q = true -> seg (e ++ q).
Proof.
  intros He [H1 H2] Hn. split; [rewrite head_clean_eol|rewrite blank_free_eol]; assumption.
Qed.
Lemma seg_crlf q : seg q -> not_eol_start q = true -> seg (13%N :: 10%N :: q).
Proof. apply (seg_eol [13%N; 10%N]). right. reflexivity. Qed.
Lemma seg_lf q : seg q -> not_eol_start q = true -> seg (10%N :: q).
Proof. apply (seg_eol [10%N]). left. reflexivity. Qed.

Lemma excludes (p : N -> bool) k : p k = false -> forall b, p b = true -> is k b = false.
Proof. intros Hk b Hb. destruct (is k b) eqn:E; [|reflexivity]. apply is_eq in E. congruence. Qed.
Lemma plain_of (p : N -> bool) : p 0%N = false -> p 13%N = false -> p 10%N = false ->
  forall b, p b = true -> plain b = true.
Proof.
  intros H0 H13 H10 b Hb. unfold plain.
  rewrite (excludes p _ H0 b Hb), (excludes p _ H13 b Hb), (excludes p _ H10 b Hb). reflexivity.
Qed.

Definition value_char_plain := plain_of value_char eq_refl eq_refl eq_refl.
Definition ws_plain := plain_of ws eq_refl eq_refl eq_refl.
Definition tchar_plain := plain_of tchar eq_refl eq_refl eq_refl.
Definition sp_plain := plain_of (is 32) eq_refl eq_refl eq_refl.
Definition junk_plain := plain_of junk_byte eq_refl eq_refl eq_refl.
Definition uri_char_plain := plain_of uri_char eq_refl eq_refl eq_refl.
Definition digit_plain := plain_of digit eq_refl eq_refl eq_refl.
Definition reason_char_plain := plain_of reason_char eq_refl eq_refl eq_refl.

Lemma plain_run_ind (R : list N -> Prop) : R [] -> (forall b q, plain b = true -> R q -> R (b :: q)) ->
  forall p, (forall b, p b = true -> plain b = true) -> forall a, forallb p a = true -> R a.
Proof.
  intros R0 Rc p Hp a. induction a as [|b a IH]; [intros _; exact R0|]. cbn [forallb]. intros H.
  apply andb_prop in H as [Hb Ha]. apply Rc; [apply Hp, Hb|apply IH, Ha].
Qed.

Definition outcome {A} (P Qp : list N -> Prop) (l : list N) (x : rres A) : Prop :=
  match x with
  | ROk _ _ r => exists q, l = q ++ r /\ P q
  | RPart => Qp l
  | RErr _ => True
  end.
Definition consumed {A} (P : list N -> Prop) : list N -> rres A -> Prop := outcome P (fun _ => True).

Lemma outcome_ok {A} (P Qp : list N -> Prop) q r (a : A) o : P q -> outcome P Qp (q ++ r) (ROk a o r).
Proof. intros Hq. exists q. split; [reflexivity|exact Hq]. Qed.

Lemma outcome_map {A B} P Qp l (x : rres A) (g : A -> B) :
  outcome P Qp l x -> outcome P Qp l (rbind x (fun a o r => ROk (g a) o r)).
Proof. destruct x; exact (fun H => H). Qed.

Lemma outcome_pre {A} (P Q Pp Qp : list N -> Prop) a l (x : rres A) :
  (forall q, Q q -> P (a ++ q)) -> (Qp l -> Pp (a ++ l)) -> outcome Q Qp l x -> outcome P Pp (a ++ l) x.
Proof.
  intros HP HQ. destruct x as [v o r| |]; [|exact HQ|exact (fun H => H)].
  intros [q [-> Hq]]. exists (a ++ q). split; [apply app_assoc|exact (HP q Hq)].
Qed.
Lemma consumed_app {A} (P Q : list N -> Prop) a l (x : rres A) :
  (forall q, Q q -> P (a ++ q)) -> consumed Q l x -> consumed P (a ++ l) x.
Proof. intros H. apply outcome_pre; [exact H|exact (fun _ => I)]. Qed.

Lemma consumed_rbind {A B} (P Q R : list N -> Prop) : (forall q q', P q -> Q q' -> R (q ++ q')) ->
  forall l (x : rres A) (g : A -> nat -> list N -> rres B),
  consumed P l x -> (forall a o r, consumed Q r (g a o r)) -> consumed R l (rbind x g).
Proof.
  intros HR l x g Hx Hg. destruct x as [a o r| |]; cbn [rbind]; [|exact I..].
  destruct Hx as [q [-> Hq]]. apply (consumed_app R Q); [|apply Hg]. intros q'. apply HR, Hq.
Qed.

Lemma consumed_len {A} (P : list N -> Prop) off l (a : A) o r :
  consumed P l (ROk a o r) -> advances0 off l (ROk a o r) ->
  exists q, l = q ++ r /\ P q /\ o = length q + off.
Proof.
  intros [q [Hl Hq]] Ha. apply advances0_inv in Ha as (q' & Hl' & Ho).
  rewrite Hl in Hl'. apply app_inv_tail in Hl'. subst q'.
  exists q. split; [exact Hl|split; [exact Hq|exact Ho]].
Qed.

(* A generic pass over one header line: P is any predicate on consumed segments closed under the
   ways the header grammar extends a segment, Qp any predicate on unfinished input that survives
   them. *)
Section Pass.
Variable hc : hcfg.
Variables P Qp : list N -> Prop.
Hypothesis P_plain : forall b q, plain b = true -> P q -> P (b :: q).
Hypothesis P_eol : forall e, is_eol e -> P e.
Hypothesis P_fold : forall e b q, is_eol e -> ws b = true -> P (b :: q) -> P (e ++ b :: q).
Hypothesis P_ws_run : allow_space_before_first_header_name hc = true ->
  forall w, w <> [] -> forallb ws w = true -> P w.
Hypothesis Q_end : forall l, l = [] \/ l = [13%N] \/ is_eol l -> Qp l.
Hypothesis Q_plain : forall b l, plain b = true -> Qp l -> Qp (b :: l).
Hypothesis Q_fold : forall e b l, is_eol e -> ws b = true -> Qp (b :: l) -> Qp (e ++ b :: l).

Lemma outcome_cons {A} b l (x : rres A) : plain b = true -> outcome P Qp l x -> outcome P Qp (b :: l) x.
Proof. intros Hb. apply (outcome_pre P P Qp Qp [b]); [intros q; apply P_plain, Hb|apply Q_plain, Hb]. Qed.
Lemma outcome_app {A} p a l (x : rres A) : (forall b, p b = true -> plain b = true) ->
  forallb p a = true -> outcome P Qp l x -> outcome P Qp (a ++ l) x.
Proof.
  intros Hp Ha H. revert a Ha. apply (plain_run_ind (fun a => outcome P Qp (a ++ l) x) H); [|exact Hp].
  intros b q. apply outcome_cons.
Qed.
Lemma outcome_fold {A} e b r (x : rres A) : is_eol e -> ws b = true ->
  outcome P Qp (b :: r) x -> outcome P Qp (e ++ b :: r) x.
Proof.
  intros He Hw. destruct x as [a o rr| |]; [|exact (Q_fold e b r He Hw)|exact (fun H => H)].
  (* the continuation consumed b at least, but `outcome` does not say so: hence the first case *)
  intros [[|y q] [Hq HP]]; cbn [app] in Hq.
  - subst rr. exists e. split; [reflexivity|exact (P_eol e He)].
  - injection Hq as <- ->. exists (e ++ b :: q).
    split; [apply (app_assoc e (b :: q) rr)|exact (P_fold e b q He Hw HP)].
Qed.

Lemma Q_vpart l : vpart hc l -> Qp l.
Proof. intros [H|[H|[_ H]]]; apply Q_end; auto. Qed.

Lemma ref_invalid_P ign e off l : outcome P Qp l (ref_invalid ign e off l).
Proof.
  destruct (ref_invalid ign e off l) as [x o r| |e'] eqn:E; [| |exact I].
  - apply ref_invalid_ok in E as (_ & _ & junk & el & -> & Hj & Hel & _).
    apply (outcome_app junk_byte); [exact junk_plain|exact Hj|]. apply outcome_ok, P_eol, Hel.
  - apply ref_invalid_part in E as (junk & t & -> & Hj & Ht).
    apply (outcome_app junk_byte); [exact junk_plain|exact Hj|]. apply Q_end. tauto.
Qed.

Lemma ref_value_lines_P voff racc off l : outcome P Qp l (ref_value_lines hc voff racc off l).
Proof.
  revert racc off l. apply (ref_value_lines_ind hc voff (fun _ _ l x => outcome P Qp l x)).
  - intros _ _ l. apply Q_vpart.
  - intros. exact I.
  - intros _ _ b r x Hb. apply outcome_cons, value_char_plain, Hb.
  - intros racc off e r He _. apply outcome_ok, P_eol, He.
  - intros _ _ e b r x He _. apply outcome_fold, He.
  - intros _ off b r _ _ _. apply outcome_map, ref_invalid_P.
Qed.

Lemma ref_value_start_P off l : outcome P Qp l (ref_value_start hc off l).
Proof.
  revert off l. apply (ref_value_start_ind hc (fun _ l x => outcome P Qp l x)).
  - intros _ l. apply Q_vpart.
  - intros. exact I.
  - intros _ b r x Hb. apply outcome_cons, ws_plain, Hb.
  - intros off b r _ _. apply ref_value_lines_P.
  - intros off e r He _. apply outcome_ok, P_eol, He.
  - intros _ e b r x He _. apply outcome_fold, He.
  - intros off b r _ _ _. apply outcome_map, ref_invalid_P.
Qed.

(* the empty line is a case of P_eol *)
Lemma ref_header_line_P first off l : outcome P Qp l (ref_header_line hc first off l).
Proof.
  rewrite ref_header_line_eq. unfold on_eol. destruct (eol_at off l) as [o r| | |] eqn:Ee; [| |exact I|].
  { apply eol_at_ok in Ee as (e & He & -> & _). apply outcome_ok, P_eol, He. }
  { apply Q_end. destruct (eol_at_part _ _ Ee); auto. }
  clear Ee. destruct l as [|b r]; [apply Q_end; auto|].
  destruct (negb (tchar b)).
  { destruct (allow_space_before_first_header_name hc && first && ws b) eqn:Esp; [|apply ref_invalid_P].
    apply andb_prop in Esp as [Esp Ew]. apply andb_prop in Esp as [Esp _].
    destruct (span ws (b :: r)) as [w r'] eqn:Es. pose proof (span_eq _ _ _ _ Es) as [-> Hw].
    apply outcome_ok, (P_ws_run Esp); [|exact Hw].
    exact (span_head _ _ _ _ _ Es Ew). }
  destruct (span tchar (b :: r)) as [name r1] eqn:Es. apply span_eq in Es as [-> Hname].
  apply (outcome_app tchar); [exact tchar_plain|exact Hname|].
  destruct (if allow_spaces_after_header_name hc then span ws r1 else ([], r1)) as [w r3] eqn:Ew.
  apply opt_span_eq in Ew as [-> Hw]. apply (outcome_app ws); [exact ws_plain|exact Hw|].
  destruct r3 as [|c r4]; [apply Q_end; auto|]. destruct (is 58 c) eqn:E58; [|apply ref_invalid_P].
  apply is_eq in E58. subst c. apply outcome_cons; [reflexivity|]. apply outcome_map, ref_value_start_P.
Qed.

Lemma header_line_ok first off l x o r : ref_header_line hc first off l = ROk x o r ->
  exists q, l = q ++ r /\ P q /\ o = length q + off.
Proof.
  intros E. pose proof (ref_header_line_P first off l) as Hc.
  pose proof (advances_weaken _ _ _ (ref_header_line_adv hc first off l)) as Ha.
  rewrite E in Hc, Ha. exact (consumed_len P off l x o r Hc Ha).
Qed.
Lemma header_line_part first off l : ref_header_line hc first off l = RPart -> Qp l.
Proof. intros E. pose proof (ref_header_line_P first off l) as Hc. rewrite E in Hc. exact Hc. Qed.
End Pass.

(* The header block as a sequence of lines: P holds of each complete line that is not the empty
   one and is closed under concatenation; Q holds of an unfinished line and of any input that
   reaches one through complete lines. *)
Section Block.
Variable hc : hcfg.
Variables P Q : list N -> Prop.
Hypothesis P_app : forall a b, P a -> P b -> P (a ++ b).
Hypothesis Q_app : forall a t, P a -> Q t -> Q (a ++ t).
Hypothesis line_ok : forall first off l x o r, ref_header_line hc first off l = ROk x o r -> x <> LEnd ->
  exists q, l = q ++ r /\ P q /\ o = length q + off.
Hypothesis line_part : forall first off l, ref_header_line hc first off l = RPart -> Q l.

Definition block_trace (off : nat) (l : list N) (st : status) : Prop :=
  match st with
  | Complete n => exists body el r, l = body ++ el ++ r /\ n = length body + length el + off /\
                                    is_eol el /\ (body = [] \/ P body)
  | Partial => Q l
  | _ => True
  end.

Lemma ref_header_block_trace f cap hs off l : block_trace off l (fst (ref_header_block hc f cap hs off l)).
Proof.
  assert (Step : forall first off l x o r st, ref_header_line hc first off l = ROk x o r -> x <> LEnd ->
                   block_trace o r st -> block_trace off l st).
  { clear off l. intros first off l x o r st El Hx. destruct (line_ok _ _ _ _ _ _ El Hx) as (q & -> & Hq & ->).
    destruct st as [n| |e|fl]; cbn [block_trace]; [|exact (Q_app q r Hq)|auto..].
    intros (body & el & r' & -> & -> & He & Hb). exists (q ++ body), el, r'.
    split; [apply app_assoc|]. split; [rewrite app_length; lia|]. split; [exact He|]. right.
    destruct Hb as [->|Hb]; [rewrite app_nil_r; exact Hq|exact (P_app q body Hq Hb)]. }
  revert f hs off l. apply (ref_header_block_ind hc cap (fun _ _ off l res => block_trace off l (fst res))).
  - intros. exact I.
  - intros _ hs off l o r El. apply ref_header_line_ok in El as [[_ (el & He & -> & ->)]|[Hx _]]; [|congruence].
    exists [], el, r. split; [reflexivity|]. split; [reflexivity|]. split; [exact He|left; reflexivity].
  - intros _ hs off l El. exact (line_part _ _ _ El).
  - intros. exact I.
  - intros. exact I.
  - intros _ hs off l o r res El. apply (Step _ _ _ _ _ _ _ El). discriminate.
  - intros _ hs off l n v o r res El _. apply (Step _ _ _ _ _ _ _ El). discriminate.
Qed.
End Block.

(* Instance 1: no NUL, no bare CR (C05). *)
Definition Pc (q : list N) : Prop := forall t, head_clean t = true -> head_clean (q ++ t) = true.

Lemma Pc_nil : Pc []. Proof. intros t H. exact H. Qed.
Lemma Pc_app a b : Pc a -> Pc b -> Pc (a ++ b).
Proof. intros Ha Hb t Ht. rewrite <- app_assoc. apply Ha. apply Hb. exact Ht. Qed.
Lemma Pc_plain b q : plain b = true -> Pc q -> Pc (b :: q).
Proof. intros Hb Hq t Ht. cbn [app]. rewrite head_clean_plain by exact Hb. apply Hq. exact Ht. Qed.
Lemma Pc_eol e : is_eol e -> Pc e.
Proof. intros He t Ht. rewrite head_clean_eol by exact He. exact Ht. Qed.
Lemma Pc_run p : (forall b, p b = true -> plain b = true) -> forall a, forallb p a = true -> Pc a.
Proof. exact (plain_run_ind Pc Pc_nil Pc_plain p). Qed.
Lemma Pc_head q : Pc q -> head_clean q = true.
Proof. intros H. rewrite <- (app_nil_r q). exact (H [] eq_refl). Qed.

Lemma Pc_fold e b q : is_eol e -> ws b = true -> Pc (b :: q) -> Pc (e ++ b :: q).
Proof. intros He _ H. exact (Pc_app e (b :: q) (Pc_eol e He) H). Qed.
Lemma Pc_ws_run (on : bool) : on = true -> forall w, w <> [] -> forallb ws w = true -> Pc w.
Proof. intros _ w _. exact (Pc_run ws ws_plain w). Qed.

(* of unfinished input this instance claims nothing: the last three arguments are Q_end, Q_plain
   and Q_fold for `fun _ => True` *)
Definition header_line_clean hc :=
  header_line_ok hc Pc (fun _ => True) Pc_plain Pc_eol Pc_fold (Pc_ws_run _)
    (fun _ _ => I) (fun _ _ _ _ => I) (fun _ _ _ _ _ _ => I).

Lemma ref_header_block_clean hc f cap hs off l n hs' :
  ref_header_block hc f cap hs off l = (Complete n, hs') ->
  exists q r, l = q ++ r /\ Pc q /\ n = length q + off.
Proof.
  intros H.
  assert (T : block_trace Pc (fun _ => True) off l (fst (ref_header_block hc f cap hs off l))).
  { apply ref_header_block_trace.
    - (* P_app *) exact Pc_app.
    - (* Q_app *) intros. exact I.
    - (* line_ok *) intros first o l' x o' r E _. exact (header_line_clean hc first o l' x o' r E).
    - (* line_part *) intros. exact I. }
  rewrite H in T. destruct T as (body & el & r & -> & -> & He & Hb).
  exists (body ++ el), r. split; [apply app_assoc|]. split; [|rewrite app_length; reflexivity].
  destruct Hb as [->|Hb]; [exact (Pc_eol el He)|exact (Pc_app body el Hb (Pc_eol el He))].
Qed.

(* Start lines: every stage consumes a clean segment, and the line as a whole one that ends in LF. *)
Definition Pe (q : list N) : Prop := exists q', q = q' ++ [10%N].
Definition Pline (q : list N) : Prop := Pc q /\ Pe q.

Lemma Pline_eol e : is_eol e -> Pline e.
Proof.
  intros He. split; [exact (Pc_eol e He)|]. destruct He as [->| ->]; [exists []|exists [13%N]]; reflexivity.
Qed.
Lemma Pline_app q q' : Pc q -> Pline q' -> Pline (q ++ q').
Proof. intros Hq [Hc [x ->]]. split; [exact (Pc_app _ _ Hq Hc)|]. exists (q ++ x). apply app_assoc. Qed.

Definition consumed_then {A B} := @consumed_rbind A B Pc Pc Pc Pc_app.
Definition consumed_last {A B} := @consumed_rbind A B Pc Pline Pline Pline_app.

Lemma ref_empty_lines_clean l : forall off, consumed Pc l (ref_empty_lines off l).
Proof.
  intros off. revert off l. apply (ref_empty_lines_ind (fun _ l x => consumed Pc l x)); [intros; exact I..| |].
  - intros off e r x He IH. apply (consumed_app Pc Pc); [|exact IH]. intros q. apply Pc_app, Pc_eol, He.
  - intros off b r _ _. exact (outcome_ok Pc _ [] (b :: r) tt off Pc_nil).
Qed.

Lemma ref_spaces_clean on off l : consumed Pc l (ref_spaces on off l).
Proof.
  unfold ref_spaces. destruct on; [|exact (outcome_ok Pc _ [] l tt off Pc_nil)].
  destruct (span (is 32) l) as [s r] eqn:Es. apply span_eq in Es as [-> Hs].
  destruct r; [exact I|]. exact (outcome_ok Pc _ s _ tt _ (Pc_run _ sp_plain s Hs)).
Qed.

Lemma span_one_clean {A} p l m b r' (a : A) o : (forall b, p b = true -> plain b = true) ->
  span p l = (m, b :: r') -> plain b = true -> consumed Pc l (ROk a o r').
Proof.
  intros Hp Es Hb. apply span_eq in Es as [-> Hm]. exists (m ++ [b]).
  split; [rewrite <- app_assoc; reflexivity|]. exact (Pc_app _ _ (Pc_run p Hp m Hm) (Pc_plain b [] Hb Pc_nil)).
Qed.

Lemma ref_method_clean off l : consumed Pc l (ref_method off l).
Proof.
  unfold ref_method. destruct (span tchar l) as [m r] eqn:Es. destruct r as [|b r']; [exact I|].
  destruct (null m); [exact I|]. destruct (is 32 b) eqn:E; [|exact I].
  exact (span_one_clean tchar l m b r' _ _ tchar_plain Es (sp_plain b E)).
Qed.
Lemma ref_target_clean off l : consumed Pc l (ref_target off l).
Proof.
  unfold ref_target. destruct (span uri_char l) as [m r] eqn:Es. destruct r as [|b r']; [exact I|].
  destruct (is 32 b) eqn:E; cbn [negb]; [|exact I].
  destruct (null m); [exact I|].
  destruct (negb (utf8_valid m)); [exact I|].
  exact (span_one_clean uri_char l m b r' _ _ uri_char_plain Es (sp_plain b E)).
Qed.
Lemma ref_version_clean off l : consumed Pc l (ref_version off l).
Proof.
  unfold ref_version. rewrite take_spec. destruct (Nat.leb 8 (length l)); [|destruct (is_prefix l HTTP1dot); exact I].
  assert (Fin : forall lit (v : N), list_eqb (firstn 8 l) lit = true -> forallb plain lit = true ->
                  consumed Pc l (ROk v (8 + off) (skipn 8 l))).
  { intros lit v He Hl. apply list_eqb_true in He. rewrite <- (firstn_skipn 8 l) at 1. rewrite He.
    exact (outcome_ok Pc _ lit _ v _ (Pc_run plain (fun b H => H) lit Hl)). }
  destruct (list_eqb (firstn 8 l) (HTTP1dot ++ [48%N])) eqn:E1; [exact (Fin _ _ E1 eq_refl)|].
  destruct (list_eqb (firstn 8 l) (HTTP1dot ++ [49%N])) eqn:E2; [exact (Fin _ _ E2 eq_refl)|exact I].
Qed.
Lemma ref_sp_clean e off l : consumed Pc l (ref_sp e off l).
Proof.
  unfold ref_sp. destruct l as [|b r]; [exact I|]. destruct (is 32 b) eqn:E; [|exact I].
  exact (outcome_ok Pc _ [b] r tt _ (Pc_plain b [] (sp_plain b E) Pc_nil)).
Qed.
Lemma ref_code_clean off l : consumed Pc l (ref_code off l).
Proof.
  unfold ref_code. destruct l as [|a r1]; [exact I|]. destruct (digit a) eqn:Ea; cbn [negb]; [|exact I].
  destruct r1 as [|b r2]; [exact I|]. destruct (digit b) eqn:Eb; cbn [negb]; [|exact I].
  destruct r2 as [|c r3]; [exact I|]. destruct (digit c) eqn:Ec; cbn [negb]; [|exact I].
  apply (outcome_ok Pc _ [a; b; c]), (Pc_run digit); [exact digit_plain|].
  cbn [forallb]. rewrite Ea, Eb, Ec. reflexivity.
Qed.

Lemma ref_eol_line e off l : consumed Pline l (ref_eol e off l).
Proof.
  destruct (ref_eol e off l) as [u o r| |] eqn:E; [|exact I..].
  apply ref_eol_ok in E as (el & He & -> & _). apply outcome_ok, Pline_eol, He.
Qed.
Lemma ref_reason_line off l : consumed Pline l (ref_reason off l).
Proof.
  unfold ref_reason. destruct (span reason_char l) as [t r] eqn:Es. apply span_eq in Es as [-> Ht].
  apply (consumed_app Pline Pline).
  { intros q. apply Pline_app. exact (Pc_run reason_char reason_char_plain t Ht). }
  apply outcome_map, ref_eol_line.
Qed.
Lemma ref_after_code_line ms off l : consumed Pline l (ref_after_code ms off l).
Proof.
  unfold ref_after_code. destruct l as [|b r]; [exact I|]. destruct (is 32 b) eqn:E32.
  - apply (consumed_app Pline Pline [b]).
    { intros q. apply (Pline_app [b]). exact (Pc_plain b [] (sp_plain b E32) Pc_nil). }
    apply consumed_last; [apply ref_spaces_clean|intros; apply ref_reason_line].
  - destruct (is 13 b || is 10 b); [|exact I].
    apply outcome_map, ref_eol_line.
Qed.

Lemma ref_request_line_clean ms buf : consumed Pline buf (snd (ref_request_line ms buf)).
Proof.
  (* one bullet per stage, in the order they run *)
  rewrite ref_request_line_snd.
  apply consumed_last; [apply consumed_then; [apply consumed_then; [apply consumed_then|]|]|].
  - apply ref_empty_lines_clean.
  - intros. apply ref_method_clean.
  - intros. apply consumed_then; [apply ref_spaces_clean|]. intros. apply ref_target_clean.
  - intros. apply consumed_then; [apply ref_spaces_clean|]. intros. apply ref_version_clean.
  - intros. apply ref_eol_line.
Qed.
Lemma ref_status_line_clean ms buf : consumed Pline buf (snd (ref_status_line ms buf)).
Proof.
  rewrite ref_status_line_snd. apply (outcome_map Pline _ buf _ (fun _ => tt)).
  apply consumed_last; [apply consumed_then; [apply consumed_then|]|].
  - apply ref_empty_lines_clean.
  - intros. apply ref_version_clean.
  - intros. apply consumed_then; [apply consumed_then; [apply ref_sp_clean|]|].
    + intros. apply ref_spaces_clean.
    + intros. apply ref_code_clean.
  - intros. apply ref_after_code_line.
Qed.

Lemma msg_head_clean hc cap buf (line : rres unit) n : consumed Pc buf line -> advances0 0 buf line ->
  fst (ref_tail line hc cap) = Complete n -> head_clean (firstn n buf) = true.
Proof.
  intros Hc Ha. destruct line as [u o l| |e]; [|discriminate..]. cbn [ref_tail].
  destruct (consumed_len Pc 0 buf u o l Hc Ha) as (q & -> & Hq & ->).
  destruct (ref_headers hc cap (length q + 0) l) as [s hs] eqn:Eh. cbn [fst]. intros ->.
  apply ref_header_block_clean in Eh as (q2 & r2 & -> & Hq2 & ->).
  replace (length q2 + (length q + 0)) with (length (q ++ q2)) by (rewrite app_length; lia).
  rewrite app_assoc, firstn_app, Nat.sub_diag, firstn_all. cbn [firstn]. rewrite app_nil_r.
  exact (Pc_head _ (Pc_app q q2 Hq Hq2)).
Qed.

Lemma consumed_line {A} buf (line : rres A) : consumed Pline buf line -> consumed Pc buf line.
Proof. destruct line as [u o l| |e]; [|exact (fun H => H)..]. intros [q [Hl [Hq _]]]. exists q. split; assumption. Qed.

Theorem ref_request_head_clean cf cap buf n :
  rq_status (ref_request cf cap buf) = Complete n -> head_clean (firstn n buf) = true.
Proof.
  rewrite ref_request_tail. apply msg_head_clean; [apply consumed_line, ref_request_line_clean|apply ref_request_line_adv].
Qed.

Theorem ref_response_head_clean cf cap buf n :
  rp_status (ref_response cf cap buf) = Complete n -> head_clean (firstn n buf) = true.
Proof.
  rewrite ref_response_tail. apply msg_head_clean; [apply consumed_line, ref_status_line_clean|apply ref_status_line_adv].
Qed.

Theorem ref_headers_head_clean hc cap buf n hs :
  ref_headers hc cap 0 buf = (Complete n, hs) -> head_clean (firstn n buf) = true.
Proof.
  intros H. apply (msg_head_clean hc cap buf (ROk tt 0 buf)).
  - exact (outcome_ok Pc _ [] buf tt 0 Pc_nil).
  - apply advances0_refl.
  - cbn [ref_tail]. rewrite H. reflexivity.
Qed.

(* Instance 2: no empty line before the terminating one (C03). *)
Definition Ff (q : list N) : Prop :=
  forall t, not_eol_start t = true -> blank_free t = true -> blank_free (q ++ t) = true.

Lemma Ff_plain b q : plain b = true -> Ff q -> Ff (b :: q).
Proof. intros Hb H t Ht Hf. cbn [app]. rewrite blank_free_plain by exact Hb. exact (H t Ht Hf). Qed.
Lemma Ff_end l : l = [] \/ l = [13%N] \/ is_eol l -> Ff l.
Proof.
  intros [->|[->|He]] t Ht Hf; [exact Hf|cbn [app]; rewrite blank_free_cons, Hf; reflexivity|].
  rewrite blank_free_eol by assumption. exact Hf.
Qed.
Lemma Ff_fold e b q : is_eol e -> ws b = true -> Ff (b :: q) -> Ff (e ++ b :: q).
Proof.
  intros He Hw H t Ht Hf. rewrite <- app_assoc, blank_free_eol; [exact (H t Ht Hf)|exact He|].
  exact (not_eol_plain b (q ++ t) (ws_plain b Hw)).
Qed.
Lemma Ff_free l : Ff l -> blank_free l = true.
Proof. intros H. rewrite <- (app_nil_r l). exact (H [] eq_refl eq_refl). Qed.

Section Framing.
Variable hc : hcfg.
Let spb := allow_space_before_first_header_name hc.

(* What the pass shows of a consumed segment that ends a line.  With the option on, a stripped run
   of leading whitespace counts as a line of its own and does not end in LF. *)
Definition Pf (q : list N) : Prop :=
  q <> [] /\
  (forall t, not_eol_start t = true -> blank_free t = true -> blank_free (q ++ t) = true) /\
  (spb = false -> last q 0%N = 10%N).

Lemma last_app_ne (a b : list N) : b <> [] -> last (a ++ b) 0%N = last b 0%N.
Proof.
  intros Hb. induction a as [|x a IH]; [reflexivity|]. cbn [app last].
  destruct (a ++ b) eqn:E; [|exact IH]. apply app_eq_nil in E as [_ E]. contradiction.
Qed.

Lemma Pf_plain b q : plain b = true -> Pf q -> Pf (b :: q).
Proof.
  intros Hb (Hne & H & Hl). split; [discriminate|split; [exact (Ff_plain b q Hb H)|]].
  intros Hs. exact (eq_trans (last_app_ne [b] q Hne) (Hl Hs)).
Qed.
Lemma Pf_eol e : is_eol e -> Pf e.
Proof.
  intros He. split; [exact (eol_ne e He)|split; [apply Ff_end; auto|]].
  intros _. destruct He as [->| ->]; reflexivity.
Qed.
Lemma Pf_fold e b q : is_eol e -> ws b = true -> Pf (b :: q) -> Pf (e ++ b :: q).
Proof.
  intros He Hw (_ & H & Hl).
  split; [destruct He as [->| ->]; discriminate|split; [exact (Ff_fold e b q He Hw H)|]].
  intros Hs. rewrite last_app_ne by discriminate. exact (Hl Hs).
Qed.
Lemma Pf_ws_run : allow_space_before_first_header_name hc = true ->
  forall w, w <> [] -> forallb ws w = true -> Pf w.
Proof.
  intros Hs w Hne Hw. split; [exact Hne|split].
  - exact (plain_run_ind Ff (Ff_end [] (or_introl eq_refl)) Ff_plain ws ws_plain w Hw).
  - unfold spb. rewrite Hs. discriminate.
Qed.

Definition header_line_framed :=
  header_line_ok hc Pf Ff Pf_plain Pf_eol Pf_fold Pf_ws_run Ff_end Ff_plain Ff_fold.
Definition header_line_free :=
  header_line_part hc Pf Ff Pf_plain Pf_eol Pf_fold Pf_ws_run Ff_end Ff_plain Ff_fold.

Definition first_ok (l : list N) : bool :=
  match l with c :: _ => negb (is 10 c) && negb (is 13 c) | [] => true end.
Lemma first_ok_not_eol l : first_ok l = true -> not_eol_start l = true.
Proof.
  destruct l as [|c r]; [reflexivity|]. cbn [first_ok not_eol_start]. intros H. apply andb_prop in H as [H1 H2].
  rewrite H1. apply negb_true_iff in H2. rewrite H2. reflexivity.
Qed.
Lemma first_ok_app a b : a <> [] -> first_ok a = true -> first_ok (a ++ b) = true.
Proof. destruct a; [congruence|auto]. Qed.
Lemma eol_none_first_ok off l : eol_at off l = EolNone -> first_ok l = true.
Proof.
  unfold eol_at. destruct l as [|b r]; [reflexivity|]. cbn [first_ok]. destruct (is 13 b).
  - destruct r as [|b2 r2]; [discriminate|destruct (is 10 b2); discriminate].
  - destruct (is 10 b); [discriminate|reflexivity].
Qed.

Definition Lf (q : list N) : Prop := first_ok q = true /\ Pf q.
Definition Uf (l : list N) : Prop := not_eol_start l = true /\ blank_free l = true.

Lemma line_framed first off l x o r : ref_header_line hc first off l = ROk x o r -> x <> LEnd ->
  exists q, l = q ++ r /\ Lf q /\ o = length q + off.
Proof.
  intros El Hx. destruct (header_line_framed first off l x o r El) as (q & Hl & Hq & Ho).
  exists q. split; [exact Hl|split; [split; [|exact Hq]|exact Ho]].
  apply ref_header_line_ok in El as [[Hx' _]|[_ Hn]]; [congruence|]. apply eol_none_first_ok in Hn.
  subst l. destruct q as [|c q']; [exact (False_ind _ (proj1 Hq eq_refl))|exact Hn].
Qed.
Lemma line_unfinished first off l : ref_header_line hc first off l = RPart -> Uf l.
Proof.
  intros El. split; [|exact (Ff_free l (header_line_free first off l El))].
  destruct (ref_header_line_part_head hc first off l El) as [->|[->|Hn]]; [reflexivity|reflexivity|].
  exact (first_ok_not_eol l (eol_none_first_ok off l Hn)).
Qed.
Lemma Uf_app a t : Lf a -> Uf t -> Uf (a ++ t).
Proof.
  intros [Hf (Hne & H & _)] [H1 H2]. split; [|exact (H t H1 H2)].
  apply first_ok_not_eol, first_ok_app; assumption.
Qed.
Lemma Lf_app a b : Lf a -> Lf b -> Lf (a ++ b).
Proof.
  intros Ha [Hfb (Hnb & Hb & Hlb)]. pose proof Ha as [Hfa (Hna & _)].
  split; [apply first_ok_app; assumption|]. split; [|split].
  - intros E. apply app_eq_nil in E as [E _]. exact (Hna E).
  - intros t Ht Hf. rewrite <- app_assoc. apply (Uf_app a (b ++ t) Ha). split; [|exact (Hb t Ht Hf)].
    apply first_ok_not_eol, first_ok_app; assumption.
  - intros Hs. rewrite last_app_ne by exact Hnb. exact (Hlb Hs).
Qed.

Definition Bf (body : list N) : Prop := body = [] \/ (first_ok body = true /\ Pf body).

Definition ref_header_block_framing := ref_header_block_trace hc Lf Uf Lf_app Uf_app line_framed line_unfinished.

Lemma ref_header_block_framed : forall f cap hs off l n hs',
  ref_header_block hc f cap hs off l = (Complete n, hs') ->
  exists body eol r, l = body ++ eol ++ r /\ n = length body + length eol + off /\
                     (eol = [10%N] \/ eol = [13%N; 10%N]) /\ Bf body.
Proof.
  intros f cap hs off l n hs' H. pose proof (ref_header_block_framing f cap hs off l) as T.
  rewrite H in T. exact T.
Qed.

Lemma Bf_blank_free body : Bf body -> blank_free (10%N :: body) = true /\ (spb = false -> body = [] \/ last body 0%N = 10%N).
Proof.
  intros [->|[Hf (Hne & HP & Hl)]]; [split; [reflexivity|auto]|].
  split; [|auto]. rewrite blank_free_cons. change (is 10 10) with true. cbn [negb orb].
  rewrite (first_ok_not_eol _ Hf). exact (Ff_free body HP).
Qed.
End Framing.

(* C03 for the header block: Complete(n) ends with an empty line, and the bytes before it --
   seen after the LF that ends the start line -- contain no empty line *)
Theorem ref_headers_framing hc cap off l n hs :
  ref_headers hc cap off l = (Complete n, hs) ->
  exists body eol r, l = body ++ eol ++ r /\ n = length body + length eol + off /\
    (eol = [10%N] \/ eol = [13%N; 10%N]) /\ blank_free (10%N :: body) = true /\
    (allow_space_before_first_header_name hc = false -> body = [] \/ last body 0%N = 10%N).
Proof.
  unfold ref_headers. intros H. apply ref_header_block_framed in H as [body [eol [r (Hl & Hn & He & HB)]]].
  exists body, eol, r. apply Bf_blank_free in HB as [H1 H2]. repeat split; auto.
Qed.
