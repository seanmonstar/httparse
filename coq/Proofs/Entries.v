(* Proofs/Entries.v -- the reference parsers never fault, keep at most `cap` headers, report
   offsets inside the buffer and, when Complete, every start-line field; then the eight entry points
   as one function of the reference result (`request_call_ref`, `response_call_ref`), and what that
   function returns: status, value and array. *)
From Coq Require Import List NArith ZArith Lia ZifyBool ZifyN ZifyNat.
From HV Require Import Scan Model Api Spec.
From HV.Proofs Require Import Base RefInd EnvOk RefFacts Refine.
Import ListNotations.

Lemma ref_header_block_no_fault : forall hc f cap hs off l flt,
  length l < f -> fst (ref_header_block hc f cap hs off l) <> Faulted flt.
Proof.
  (* every line consumed shortens the input, so fuel beyond its length is never used up *)
  intros hc f cap hs off l flt. revert f hs off l.
  apply (ref_header_block_ind hc cap (fun f _ _ l res => length l < f -> fst res <> Faulted flt)); try discriminate.
  - intros hs off l H. inversion H.
  - intros f hs off l o r res El IH Hl. apply ref_header_line_step in El. apply IH. lia.
  - intros f hs off l n v o r res El _ IH Hl. apply ref_header_line_step in El. apply IH. lia.
Qed.

Lemma ref_headers_no_fault hc cap off l flt : fst (ref_headers hc cap off l) <> Faulted flt.
Proof. unfold ref_headers. apply ref_header_block_no_fault. lia. Qed.

Lemma tail_no_fault x hc cap flt : fst (ref_tail x hc cap) <> Faulted flt.
Proof. destruct x as [u o l| |e]; [apply ref_headers_no_fault|discriminate..]. Qed.

Lemma ref_request_no_fault cf cap buf flt : rq_status (ref_request cf cap buf) <> Faulted flt.
Proof. rewrite ref_request_tail. apply tail_no_fault. Qed.
Lemma ref_response_no_fault cf cap buf flt : rp_status (ref_response cf cap buf) <> Faulted flt.
Proof. rewrite ref_response_tail. apply tail_no_fault. Qed.

Lemma tail_headers_len x hc cap : length (snd (ref_tail x hc cap)) <= cap.
Proof.
  destruct x as [u o l| |e]; [|apply Nat.le_0_l..].
  destruct (ref_headers_inv hc cap o l) as (_ & Hlen & _). apply Hlen, Nat.le_0_l.
Qed.

Lemma ref_request_headers_len cf cap buf : length (rq_headers (ref_request cf cap buf)) <= cap.
Proof. rewrite ref_request_tail. apply tail_headers_len. Qed.
Lemma ref_response_headers_len cf cap buf : length (rp_headers (ref_response cf cap buf)) <= cap.
Proof. rewrite ref_response_tail. apply tail_headers_len. Qed.

Lemma tail_bound buf x hc cap n : advances0 0 buf x ->
  fst (ref_tail x hc cap) = Complete n -> n <= length buf.
Proof.
  destruct x as [u o l| |e]; [|discriminate..]. intros (k & Hk & -> & ->) Hn.
  destruct (ref_headers_inv hc cap (k + 0) (skipn k buf)) as (_ & _ & Hbd).
  specialize (Hbd n Hn). rewrite skipn_length in Hbd. lia.
Qed.

Lemma ref_request_bound cf cap buf n :
  rq_status (ref_request cf cap buf) = Complete n -> n <= length buf.
Proof. rewrite ref_request_tail. apply tail_bound, ref_request_line_adv. Qed.
Lemma ref_response_bound cf cap buf n :
  rp_status (ref_response cf cap buf) = Complete n -> n <= length buf.
Proof. rewrite ref_response_tail. apply tail_bound, ref_status_line_adv. Qed.

Lemma tail_complete x hc cap n : fst (ref_tail x hc cap) = Complete n -> exists u o r, x = ROk u o r.
Proof. destruct x as [u o r| |e]; [eauto|discriminate..]. Qed.

Lemma ref_request_complete_fields cf cap buf n :
  rq_status (ref_request cf cap buf) = Complete n ->
  exists m p v, rq_start (ref_request cf cap buf) = Build_ref_start_req (Some m) (Some p) (Some v).
Proof.
  rewrite ref_request_tail. cbn [rq_status rq_start]. intros H. apply tail_complete in H as (u & o & r & H).
  rewrite ref_request_line_chain in *. exact (chain3_ok _ _ _ _ _ _ _ _ H).
Qed.
Lemma ref_response_complete_fields cf cap buf n :
  rp_status (ref_response cf cap buf) = Complete n ->
  exists v c r, rp_start (ref_response cf cap buf) = Build_ref_start_resp (Some v) (Some c) (Some r).
Proof.
  rewrite ref_response_tail. cbn [rp_status rp_start]. intros H. apply tail_complete in H as (u & o & r & H).
  rewrite ref_status_line_chain in *. exact (chain3_ok _ _ _ _ _ _ _ _ H).
Qed.

Section Top.
Variable E : env.
Hypothesis HE : env_ok E.

Definition eff_cfg (e : entry) (cf : config) : config :=
  match e with EParse | EUninit => config_default | _ => cf end.
Definition uses_array (e : entry) : bool :=
  match e with EUninit | EConfigUninit => true | _ => false end.

(* the array the call works on, and what `headers` refers to when the call does not complete *)
Definition req_call_result (e : entry) (cf : config) (buf : list N) (arr : list slot) (rq : request) : rq_res :=
  if uses_array e then req_result rq arr (ref_request (eff_cfg e cf) (length arr) buf)
  else
    let r := ref_request (eff_cfg e cf) (length (q_hdrs rq)) buf in
    match req_result rq (q_hdrs rq) r with
    | (Complete n, rq', arr') => (Complete n, rq', arr')
    | (st, rq', arr') => (st, mkreq (q_method rq') (q_path rq') (q_version rq') arr', arr')
    end.

Theorem request_call_ref : forall e cf buf arr rq, bytes_ok buf ->
  request_call E e cf buf arr rq = req_call_result e cf buf arr rq.
Proof.
  intros e cf buf arr rq Hb.
  (* on the request's own array: the reference does not fault, so the arm that puts nothing back is dead *)
  assert (Hown : forall cf', request_with_config E cf' buf rq = req_call_result EConfig cf' buf arr rq).
  { intros cf'. unfold request_with_config, req_call_result. cbn [uses_array eff_cfg].
    rewrite (request_core_ref E HE) by exact Hb. unfold req_result. cbn [q_method q_path q_version q_hdrs].
    destruct (rq_status _) eqn:Es; [reflexivity..|]. destruct (ref_request_no_fault _ _ _ _ Es). }
  destruct e.
  - exact (Hown config_default).
  - exact (Hown cf).
  - apply (request_core_ref E HE). exact Hb.
  - apply (request_core_ref E HE). exact Hb.
Qed.

Definition resp_call_result (e : entry) (cf : config) (buf : list N) (arr : list slot) (rp : response) : rp_res :=
  if uses_array e then resp_result rp arr (ref_response (eff_cfg e cf) (length arr) buf)
  else
    let r := ref_response (eff_cfg e cf) (length (p_hdrs rp)) buf in
    match resp_result rp (p_hdrs rp) r with
    | (Complete n, rp', arr') => (Complete n, rp', arr')
    | (st, rp', arr') => (st, mkresp (p_version rp') (p_code rp') (p_reason rp') arr', arr')
    end.

Theorem response_call_ref : forall e cf buf arr rp, bytes_ok buf ->
  response_call E e cf buf arr rp = resp_call_result e cf buf arr rp.
Proof.
  intros e cf buf arr rp Hb.
  assert (Hown : forall cf', response_with_config E cf' buf rp = resp_call_result EConfig cf' buf arr rp).
  { intros cf'. unfold response_with_config, resp_call_result. cbn [uses_array eff_cfg].
    rewrite (response_core_ref E HE) by exact Hb. unfold resp_result. cbn [p_version p_code p_reason p_hdrs].
    destruct (rp_status _) eqn:Es; [reflexivity..|]. destruct (ref_response_no_fault _ _ _ _ Es). }
  destruct e.
  - exact (Hown config_default).
  - exact (Hown cf).
  - apply (response_core_ref E HE). exact Hb.
  - apply (response_core_ref E HE). exact Hb.
Qed.
End Top.

Definition req_cap (e : entry) (arr : list slot) (rq : request) : nat :=
  if uses_array e then length arr else length (q_hdrs rq).
Definition resp_cap (e : entry) (arr : list slot) (rp : response) : nat :=
  if uses_array e then length arr else length (p_hdrs rp).

Lemma req_call_status e cf buf arr rq :
  fst (fst (req_call_result e cf buf arr rq)) = rq_status (ref_request (eff_cfg e cf) (req_cap e arr rq) buf).
Proof.
  unfold req_call_result, req_cap. destruct (uses_array e); [reflexivity|].
  unfold req_result. destruct (rq_status _); reflexivity.
Qed.
Lemma resp_call_status e cf buf arr rp :
  fst (fst (resp_call_result e cf buf arr rp)) = rp_status (ref_response (eff_cfg e cf) (resp_cap e arr rp) buf).
Proof.
  unfold resp_call_result, resp_cap. destruct (uses_array e); [reflexivity|].
  unfold resp_result. destruct (rp_status _); reflexivity.
Qed.

Lemma req_call_complete e cf buf arr rq n :
  let r := ref_request (eff_cfg e cf) (req_cap e arr rq) buf in
  rq_status r = Complete n ->
  snd (fst (req_call_result e cf buf arr rq)) =
  mkreq (rs_method (rq_start r)) (rs_path (rq_start r)) (rs_version (rq_start r)) (written_of (rq_headers r)).
Proof.
  cbn zeta. intros H. pose proof (ref_request_complete_fields _ _ _ _ H) as [m [p [v Hs]]].
  unfold req_call_result, req_cap in *. destruct (uses_array e); unfold req_result; rewrite H, Hs; reflexivity.
Qed.
Lemma resp_call_complete e cf buf arr rp n :
  let r := ref_response (eff_cfg e cf) (resp_cap e arr rp) buf in
  rp_status r = Complete n ->
  snd (fst (resp_call_result e cf buf arr rp)) =
  mkresp (rs_pversion (rp_start r)) (rs_code (rp_start r)) (rs_reason (rp_start r)) (written_of (rp_headers r)).
Proof.
  cbn zeta. intros H. pose proof (ref_response_complete_fields _ _ _ _ H) as [v [c [r Hs]]].
  unfold resp_call_result, resp_cap in *. destruct (uses_array e); unfold resp_result; rewrite H, Hs; reflexivity.
Qed.

(* the caller's array after the call: the reference's headers, in order, then the old slots *)
Lemma req_call_array e cf buf arr rq :
  snd (req_call_result e cf buf arr rq) =
  slots_of (rq_headers (ref_request (eff_cfg e cf) (req_cap e arr rq) buf))
           (if uses_array e then arr else q_hdrs rq).
Proof.
  unfold req_call_result, req_cap. destruct (uses_array e); [reflexivity|].
  unfold req_result. destruct (rq_status _); reflexivity.
Qed.
Lemma resp_call_array e cf buf arr rp :
  snd (resp_call_result e cf buf arr rp) =
  slots_of (rp_headers (ref_response (eff_cfg e cf) (resp_cap e arr rp) buf))
           (if uses_array e then arr else p_hdrs rp).
Proof.
  unfold resp_call_result, resp_cap. destruct (uses_array e); [reflexivity|].
  unfold resp_result. destruct (rp_status _); reflexivity.
Qed.

Lemma req_call_hdrs_incomplete e cf buf arr rq :
  (forall n, fst (fst (req_call_result e cf buf arr rq)) <> Complete n) ->
  q_hdrs (snd (fst (req_call_result e cf buf arr rq))) =
  if uses_array e then q_hdrs rq else snd (req_call_result e cf buf arr rq).
Proof.
  intros H. rewrite req_call_status in H. unfold req_call_result, req_cap in *.
  destruct (uses_array e); unfold req_result in *; destruct (rq_status _) eqn:Es; try reflexivity;
    exfalso; eapply H; reflexivity.
Qed.
Lemma resp_call_hdrs_incomplete e cf buf arr rp :
  (forall n, fst (fst (resp_call_result e cf buf arr rp)) <> Complete n) ->
  p_hdrs (snd (fst (resp_call_result e cf buf arr rp))) =
  if uses_array e then p_hdrs rp else snd (resp_call_result e cf buf arr rp).
Proof.
  intros H. rewrite resp_call_status in H. unfold resp_call_result, resp_cap in *.
  destruct (uses_array e); unfold resp_result in *; destruct (rp_status _) eqn:Es; try reflexivity;
    exfalso; eapply H; reflexivity.
Qed.
