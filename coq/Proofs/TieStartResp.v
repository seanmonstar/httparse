(* TieStartResp.v -- parse_code, parse_reason as translated on this run = Model.v *)
From Coq Require Import List NArith Bool Lia ZifyBool.
From HV Require Import Cursor Scan Model Imp ImpLib.
From HV.Generated Require Import Lib.
From HV.Proofs Require Import TieBase.
Import ListNotations.
Local Open Scope N_scope.

Lemma tie_parse_code c : g_parse_code c = parse_code c.
Proof.
  unfold g_parse_code, g_parse_code_body, parse_code, is_digit, g_parse_code_init.
  destruct c as [p t r].
  imp_unfold; cbn [rest pre tokrev].
  destruct r as [|h r]; [reflexivity|].
  rewrite in_rng_range. destruct (in_range 48 57 h) eqn:Hh; [|reflexivity].
  destruct r as [|t0 r]; [reflexivity|]. cbn [rest pre tokrev].
  rewrite in_rng_range. destruct (in_range 48 57 t0) eqn:Ht; [|reflexivity].
  destruct r as [|o r]; [reflexivity|]. cbn [rest pre tokrev].
  rewrite in_rng_range. destruct (in_range 48 57 o) eqn:Ho; [|reflexivity].
  unfold in_range in *.
  match goal with |- context [if ?g then _ else _] => assert (Hg : g = true) end.
  { unfold fits. change (2 ^ 16) with 65536. lia. }
  rewrite Hg. reflexivity.
Qed.

Lemma tie_parse_reason fuel c : g_parse_reason fuel c = parse_reason fuel c.
Proof.
  unfold g_parse_reason, g_parse_reason_body, parse_reason, g_parse_reason_init.
  grab_loop 1%nat B.
  assert (HL : forall f seen c,
     to_out (A:=unit) (iloop f 1 B (mkL_g_parse_reason seen) c) = parse_reason_f f seen c).
  { clear c. induction f as [|f IH]; intros seen [p t r]; [reflexivity|].
    cbn [parse_reason_f iloop]. unfold B at 1. imp_unfold.
    destruct r as [|b r]; [reflexivity|]. imp_unfold.
    unfold is, CR, LF. destruct (N.eqb b 13).
    - destruct r as [|b2 r]; [reflexivity|]. imp_unfold.
      destruct (N.eqb b2 10); [|reflexivity]. cbn [drop g_parse_reason_m1].
      destruct seen; reflexivity.
    - destruct (N.eqb b 10).
      + cbn [drop g_parse_reason_m1]. destruct seen; reflexivity.
      + unfold reason_byte, is, SP. rewrite in_rng_range.
        change (N.leb 128 b) with (128 <=? b). rewrite ?N.ltb_antisym.
        (* whatever boolean form the source gives the class test (negated disjunction, conjunction of negations,
           `<` for `!(>=)`): split on its four atoms *)
        destruct (N.eqb b 9), (N.eqb b 32), (in_range 33 126 b), (128 <=? b); cbn [negb andb orb];
          try reflexivity.
        (* left: the byte is accepted and the loop goes round, `seen` or-ed with the obs-text test *)
        all: unfold set_g_parse_reason_m1; rewrite IH.
        all: rewrite ?orb_true_r, ?orb_false_r; reflexivity. }
  exact (eq_trans (irun_loop_tail _ _ c) (HL fuel false c)).
Qed.
