(* Thm/C12.v -- every byte-class scanner stops exactly at the first out-of-class byte.
   Statements only; proofs are in Proofs/{Swar,Kernels,ScanLoops,BackendsOk}.v and are
   about the kernels / tables TRANSLATED from /repo on this run (Generated/*.v). *)
From Coq Require Import List NArith Bool.
Import ListNotations.
From HV Require Import Cursor Scan Intrinsics Model Api Spec Backends.
From HV.Generated Require Import Classes Swar Sse42 Avx2 Neon.
From HV.Proofs Require Import Base Swar ScanLoops EnvOk Kernels BackendsOk.

(* the class tables of lib.rs (and NEON's bit_set) are exactly the classes of the property *)
Theorem tables_are_classes : forall b, (b < 256)%N ->
  URI_MAP b = uri_char b /\ TOKEN_MAP b = tchar b /\ HEADER_VALUE_MAP b = value_char b /\
  is_method_token b = tchar b /\ is_uri_token b = uri_char b /\
  is_header_name_token b = tchar b /\ is_header_value_token b = value_char b /\
  neon_bit_set b = tchar b.
Proof.
  intros b Hb.
  exact (conj (URI_MAP_class b Hb) (conj (TOKEN_MAP_class b Hb) (conj (HEADER_VALUE_MAP_class b Hb)
        (conj (is_method_token_class b Hb) (conj (is_uri_token_class b Hb)
        (conj (is_header_name_token_class b Hb) (conj (is_header_value_token_class b Hb)
        (neon_bit_set_class b Hb)))))))).
Qed.
Print Assumptions tables_are_classes.

(* SWAR block kernels, any word width: exact for the target class; exact for
   0x20-0x7E / 0x80-0xFF in the value kernel (HTAB is a conservative stop) *)
Theorem swar_uri_kernel : forall W block, length block = W -> bytes_ok block ->
  match_uri_char_8_swar W block = first_bad (strict_class 33) block.
Proof. exact swar_uri_kernel_exact. Qed.
Print Assumptions swar_uri_kernel.
Theorem swar_value_kernel : forall W block, length block = W -> bytes_ok block ->
  match_header_value_char_8_swar W block = first_bad (strict_class 32) block.
Proof. exact swar_value_kernel_exact. Qed.
Print Assumptions swar_value_kernel.

(* x86 and NEON block kernels *)
Theorem simd_kernels : forall block, bytes_ok block ->
  (length block = 16 -> match_url_char_16_sse block = first_bad uri_char block) /\
  (length block = 16 -> match_header_value_char_16_sse block = first_bad value_char block) /\
  (length block = 32 -> match_url_char_32_avx block = first_bad uri_char block) /\
  (length block = 32 -> match_header_value_char_32_avx block = first_bad value_char block) /\
  (length block = 16 -> match_url_char_16_neon block = first_bad uri_char block) /\
  (length block = 16 -> match_header_value_char_16_neon block = first_bad value_char block) /\
  (length block = 16 -> match_header_name_char_16_neon block = first_bad tchar block).
Proof.
  intros block Hb.
  exact (conj (fun Hl => sse_uri_kernel_exact block Hl Hb) (conj (fun Hl => sse_value_kernel_exact block Hl Hb)
        (conj (fun Hl => avx_uri_kernel_exact block Hl Hb) (conj (fun Hl => avx_value_kernel_exact block Hl Hb)
        (conj (fun Hl => neon_uri_kernel_exact block Hl Hb) (conj (fun Hl => neon_value_kernel_exact block Hl Hb)
        (fun Hl => neon_name_kernel_exact block Hl Hb))))))).
Qed.
Print Assumptions simd_kernels.

(* the scanners themselves: for every backend, class, buffer content and length, the cursor
   is left at exactly the first out-of-class byte (or the end) and nothing faults *)
Theorem scanner_exact : forall W, 0 < W -> forall be fuel c,
  bytes_ok (rest c) -> length (rest c) < fuel ->
  s_uri (env_of W be) fuel c = Done tt (adv (first_bad uri_char (rest c)) c) /\
  s_value (env_of W be) fuel c = Done tt (adv (first_bad value_char (rest c)) c) /\
  s_name (env_of W be) fuel c = Done tt (adv (first_bad tchar (rest c)) c).
Proof.
  intros W HW be fuel c Hb Hl. destruct (env_of_ok W HW be) as [_ _ _ _ Hu Hv Hn].
  exact (conj (Hu fuel c Hb Hl) (conj (Hv fuel c Hb Hl) (Hn fuel c Hb Hl))).
Qed.
Print Assumptions scanner_exact.

(* non-vacuity: a concrete 20-byte buffer whose 18th byte is DEL, AVX2-on-64-bit backend *)
Example scanner_exact_example :
  let buf := (repeat 97 17 ++ [127; 98; 99])%N in
  bytes_ok buf /\
  s_uri (env_of 8 BAvx2) 21 (cur_new buf) = Done tt (adv 17 (cur_new buf)).
Proof.
  split; [repeat constructor|vm_compute; reflexivity].
Qed.

(* ---- the loop shells: each scanner loop of swar.rs / sse42.rs / avx2.rs / neon.rs, translated statement by
   statement on this run (Generated/Loops.v: guard, block load as a CHECKED operation, kernel call, advance,
   early return, hand-over to the word-at-a-time scanner), is the loop Scan.v defines and Backends.v
   instantiates -- so the scanners `scanner_exact` speaks about are the translated source ---- *)
From HV Require Import Imp ImpLib.
From HV.Generated Require Import Loops.
From HV.Proofs Require Import TieLoops.
Theorem loop_shells_as_translated : forall W fb fuel c,
  gl_swar_uri W fuel c = swar_uri W fuel c /\ gl_swar_value W fuel c = swar_value W fuel c /\
  gl_swar_name W fuel c = swar_name W fuel c /\
  gl_sse42_uri fb fuel c = sse42_match_uri_vectored fb fuel c /\
  gl_sse42_value fb fuel c = sse42_match_header_value_vectored fb fuel c /\
  gl_avx2_uri fb fuel c = avx2_match_uri_vectored fb fuel c /\
  gl_avx2_value fb fuel c = avx2_match_header_value_vectored fb fuel c /\
  gl_neon_uri fb fuel c = neon_match_uri_vectored fb fuel c /\
  gl_neon_value fb fuel c = neon_match_header_value_vectored fb fuel c /\
  gl_neon_name fb fuel c = neon_match_header_name_vectored fb fuel c.
Proof.
  exact loop_shells_tied_pf.
Qed.
Print Assumptions loop_shells_as_translated.

(* ---- the helpers the word-at-a-time scanner calls: match_tail, match_block and offsetnz of swar.rs, translated
   statement by statement on this run (Generated/SwarFns.v, the `for (i, b) in .. .enumerate()` loop included),
   are the functions a call of them is read as above (Scan.first_bad, Intrinsics.offsetnz); in particular
   offsetnz never reaches its `unreachable!()` ---- *)
From HV Require Import Intrinsics.
From HV.Generated Require Import SwarFns.
From HV.Proofs Require Import TieSwarFns.
Theorem swar_helpers_as_translated : forall W f l,
  g_match_tail W f l = Some (first_bad f l) /\
  (length l = W -> g_match_block W f l = Some (first_bad f l)) /\
  g_offsetnz W l = Some (offsetnz W l).
Proof.
  intros W f l. split; [apply tie_match_tail|]. split; [apply tie_match_block|apply tie_offsetnz].
Qed.
Print Assumptions swar_helpers_as_translated.
Example swar_helpers_example :
  g_match_tail 8 (fun b => N.ltb 32 b) [65; 66; 9; 67]%N = Some 2 /\ g_offsetnz 4 [0; 0; 128; 0]%N = Some 2 /\
  g_offsetnz 4 [0; 0; 0; 0]%N = Some 4.
Proof. repeat split; reflexivity. Qed.
