(* Thm/C17.v -- header storage: exact count, capacity law, untouched and never-uninit slots. *)
From Coq Require Import List NArith Bool Lia.
From HV Require Import Cursor Scan Model Api Spec.
From HV.Proofs Require Import Base EnvOk Refine Entries Storage.
Import ListNotations.

(* Complete: `headers` is exactly the reference's header list (one element per accepted line,
   each a header parsed from this buffer); it is the first k slots of the caller's array and
   the slots beyond k keep their previous contents *)
Theorem complete_count : forall E, env_ok E -> forall e cf buf arr rq n, bytes_ok buf ->
  let res := request_call E e cf buf arr rq in
  let base := if uses_array e then arr else q_hdrs rq in
  fst (fst res) = Complete n ->
  let hs := rq_headers (ref_request (eff_cfg e cf) (length base) buf) in
  q_hdrs (snd (fst res)) = written_of hs /\
  Forall is_written (q_hdrs (snd (fst res))) /\
  length hs <= length base /\
  firstn (length hs) (snd res) = written_of hs /\
  skipn (length hs) (snd res) = skipn (length hs) base.
Proof.
  intros E HE e cf buf arr rq n Hb. cbn zeta. rewrite (request_call_ref E HE) by exact Hb.
  rewrite req_call_status, req_call_array. intros Hn.
  rewrite (req_call_complete e cf buf arr rq n Hn). cbn [q_hdrs].
  unfold req_cap.
  destruct (uses_array e); (split; [reflexivity|]); apply slots_of_shape; apply ref_request_headers_len.
Qed.
Print Assumptions complete_count.

Theorem complete_count_response : forall E, env_ok E -> forall e cf buf arr rp n, bytes_ok buf ->
  let res := response_call E e cf buf arr rp in
  let base := if uses_array e then arr else p_hdrs rp in
  fst (fst res) = Complete n ->
  let hs := rp_headers (ref_response (eff_cfg e cf) (length base) buf) in
  p_hdrs (snd (fst res)) = written_of hs /\
  Forall is_written (p_hdrs (snd (fst res))) /\
  length hs <= length base /\
  firstn (length hs) (snd res) = written_of hs /\
  skipn (length hs) (snd res) = skipn (length hs) base.
Proof.
  intros E HE e cf buf arr rp n Hb. cbn zeta. rewrite (response_call_ref E HE) by exact Hb.
  rewrite resp_call_status, resp_call_array. intros Hn.
  rewrite (resp_call_complete e cf buf arr rp n Hn). cbn [p_hdrs].
  unfold resp_cap.
  destruct (uses_array e); (split; [reflexivity|]); apply slots_of_shape; apply ref_response_headers_len.
Qed.
Print Assumptions complete_count_response.

(* capacity law: with capacity cap the outcome is the outcome with any larger capacity cap',
   unless that run completes more than cap header lines -- then it is Err(TooManyHeaders) *)
Theorem capacity_law : forall cf cap cap' buf, cap <= cap' ->
  (let r' := ref_request cf cap' buf in
   ref_request cf cap buf =
   if Nat.leb (length (rq_headers r')) cap then r'
   else Build_ref_req (Error TooManyHeaders) (rq_start r') (firstn cap (rq_headers r'))) /\
  (let r' := ref_response cf cap' buf in
   ref_response cf cap buf =
   if Nat.leb (length (rp_headers r')) cap then r'
   else Build_ref_resp (Error TooManyHeaders) (rp_start r') (firstn cap (rp_headers r'))) /\
  (forall hc off l,
   let r' := ref_headers hc cap' off l in
   ref_headers hc cap off l =
   if Nat.leb (length (snd r')) cap then r' else (Error TooManyHeaders, firstn cap (snd r'))).
Proof.
  intros cf cap cap' buf Hc. split; [apply capacity_law_request; exact Hc|].
  split; [apply capacity_law_response; exact Hc|]. intros. apply capacity_law_headers. exact Hc.
Qed.
Print Assumptions capacity_law.

(* Partial / Err: the initialised entry points leave `headers` referring to the whole array
   (each slot its previous content or a header of this buffer); the uninit entry points leave
   `headers` untouched *)
Theorem non_complete_restores : forall E, env_ok E -> forall e cf buf arr rq, bytes_ok buf ->
  let res := request_call E e cf buf arr rq in
  (forall n, fst (fst res) <> Complete n) ->
  (uses_array e = false ->
     q_hdrs (snd (fst res)) = snd res /\ length (snd res) = length (q_hdrs rq) /\
     exists hs, length hs <= length (q_hdrs rq) /\ snd res = written_of hs ++ skipn (length hs) (q_hdrs rq)) /\
  (uses_array e = true -> q_hdrs (snd (fst res)) = q_hdrs rq).
Proof.
  intros E HE e cf buf arr rq Hb. cbn zeta. rewrite (request_call_ref E HE) by exact Hb. intros Hn.
  rewrite (req_call_hdrs_incomplete e cf buf arr rq Hn), req_call_array. unfold req_cap.
  split; intros Hu; rewrite Hu; [|reflexivity].
  pose proof (ref_request_headers_len (eff_cfg e cf) (length (q_hdrs rq)) buf) as Hl.
  split; [reflexivity|]. split; [apply slots_of_length; exact Hl|].
  eexists. split; [exact Hl|reflexivity].
Qed.
Print Assumptions non_complete_restores.

Theorem non_complete_restores_response : forall E, env_ok E -> forall e cf buf arr rp, bytes_ok buf ->
  let res := response_call E e cf buf arr rp in
  (forall n, fst (fst res) <> Complete n) ->
  (uses_array e = false ->
     p_hdrs (snd (fst res)) = snd res /\ length (snd res) = length (p_hdrs rp) /\
     exists hs, length hs <= length (p_hdrs rp) /\ snd res = written_of hs ++ skipn (length hs) (p_hdrs rp)) /\
  (uses_array e = true -> p_hdrs (snd (fst res)) = p_hdrs rp).
Proof.
  intros E HE e cf buf arr rp Hb. cbn zeta. rewrite (response_call_ref E HE) by exact Hb. intros Hn.
  rewrite (resp_call_hdrs_incomplete e cf buf arr rp Hn), resp_call_array. unfold resp_cap.
  split; intros Hu; rewrite Hu; [|reflexivity].
  pose proof (ref_response_headers_len (eff_cfg e cf) (length (p_hdrs rp)) buf) as Hl.
  split; [reflexivity|]. split; [apply slots_of_length; exact Hl|].
  eexists. split; [exact Hl|reflexivity].
Qed.
Print Assumptions non_complete_restores_response.

(* non-vacuity: three header lines into two slots *)
Example capacity_example :
  let buf := [65;58;49;10;66;58;50;10;67;58;51;10;10]%N in
  fst (ref_headers hcfg_default 2 0 buf) = Error TooManyHeaders /\
  fst (ref_headers hcfg_default 3 0 buf) = Complete 13 /\
  length (snd (ref_headers hcfg_default 3 0 buf)) = 3.
Proof. vm_compute. repeat split. Qed.

(* ---- tie to the source: every statement above is about Model.v / Api.v; Proofs/Src*.v prove that the
   functions TRANSLATED from /repo/src/lib.rs on this run (Generated/Lib.v, LibApi.v) compute the same
   results, for every environment whose scanners only move forward (all concrete backends do), so each
   theorem of this file holds of the translated source by rewriting with `source_tie`.  Only the entry-point
   families this property speaks about are imported (Req, Resp) ---- *)
From HV Require Import Backends.
From HV.Proofs Require Import Mono BackendsFwd SrcReq SrcResp.
Theorem source_tie : forall E, env_fwd E -> request_source_is_model E /\ response_source_is_model E.
Proof. intros E HE. split; [apply src_tie_request; exact HE|apply src_tie_response; exact HE]. Qed.
Print Assumptions source_tie.
Theorem source_tie_backends : forall W be, request_source_is_model (env_of W be) /\ response_source_is_model (env_of W be).
Proof. intros W be. apply source_tie, backends_fwd. Qed.
Print Assumptions source_tie_backends.

(* ---- the scanners and class tables of THIS run.  The theorems above hold for every environment E with `env_ok E`
   (each scanner stops exactly at the first byte outside its class; the class predicates are the classes of the
   property).  Every concrete backend -- word-at-a-time with any word width, SSE4.2, AVX2, NEON, the runtime dispatch
   with any cached id -- built from the kernels, loop shells and CLASS TABLES translated from /repo on this run
   satisfies it (Proofs/BackendsOk.v over Generated/{Classes,Swar,Sse42,Avx2,Neon}.v; Thm/C12.v states the parts), so
   the theorems hold of the code as it is now; a table entry or a kernel that is not the class breaks this obligation
   of THIS property, not only C12's ---- *)
From HV Require Backends.
From HV.Proofs Require BackendsOk.
Theorem backends_of_this_run_ok : forall W, 0 < W -> forall be, env_ok (Backends.env_of W be).
Proof. exact BackendsOk.env_of_ok. Qed.
Print Assumptions backends_of_this_run_ok.
(* ... and the scanner loop shells and SWAR helpers translated on this run are the ones `Backends.env_of` is built from *)
From HV.Proofs Require TieLoops TieSwarFns.
Theorem loop_shells_of_this_run : TieLoops.loop_shells_tied.
Proof. exact TieLoops.loop_shells_tied_pf. Qed.
Print Assumptions loop_shells_of_this_run.

