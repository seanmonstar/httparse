(* Thm/C20.v -- linear work.

   The objects: Generated/CScan.v, CModel.v, CBackends.v, CSse42/CAvx2/CNeon.v are textual copies
   (made by the translator on every run) of Scan.v, Model.v, Backends.v and the translated loop
   shells, compiled against CursorC.v: the same cursor operations, each charging one tick, with
   `travel` counting the bytes the cursor moves over.  CostTop.v sequences them exactly as
   Api.v / Model.v headers_loop do and charges the backward trim of each stored header value.

   Theorems, for every backend (any word width W >= 1), configuration, capacity and buffer:
     - ticks spent by a request / response / header-block / chunk-size call
         <= 32 * |buf| + 80       whatever the outcome (Complete, Partial, Err);
     - travel <= |buf|, and travel + |unread| = |buf| when the call completes: the cursor moves
       strictly forward, over each byte exactly once;
     - set_cursor (the only operation of iter.rs that could move the cursor backward) is not
       called anywhere in the crate (over Generated/Names.v).

   The cost model is not a look-alike: `cost_model_runs_the_model_*` (below, Proofs/Erase.v) prove that, with the
   two counters forgotten, every stage function, every scanner loop of every backend and the call sequences of
   CostTop.v compute exactly what Scan.v / Model.v / Backends.v / Api.v compute (same outcome, same error kind), so the
   bounds are bounds on the executions of the model -- and, through source_tie, of the translated source.
   PARTIAL: which operations cost a tick is a modelling choice (CursorC.v); the counters are tied to the crate by the
   correspondence check (status and travel of the extracted cost model against the cfg(httparse_verif) counters of the
   real code, every backend); instruction counts, cache effects and wall-clock time are outside the model and are
   observed on timing runs, not proved. *)
From Coq Require Import List NArith ZArith Lia Bool String.
From HV Require Import CursorC CostTop AllocFree.
From HV.Generated Require Import Names Cfg CScan CModel CBackends.
From HV.Proofs Require Import Work.
Import ListNotations.

Definition work_ok {A} (p : P A) (buf : list N) : Prop :=
  let '(cls, tk, tr) := run_work p buf in
  cls <> 3%N ->
  tk <= 32 * List.length buf + 80 /\ tr <= List.length buf.

Lemma work_from_lin {A} (p : P A) buf :
  lin 32 40 80 p -> cons p -> work_ok p buf.
Proof.
  intros Hl Hc. unfold work_ok, run_work. specialize (Hl (cur_new buf)). specialize (Hc (cur_new buf)).
  (* On the fresh cursor Phi 32 is 32 * length buf and bud is length buf.  Hl: the final Phi 32, so the final
     ticks, is at most that + 40 (a run that stops early reports at most that + 80 ticks).  Hc: the final
     travel + length rest is length buf (stopping early: travel <= length buf). *)
  unfold Phi, bud in *. cbn [cur_new ticks rest tokrev travel List.length] in *.
  destruct (p (cur_new buf)) as [x c'|tk tr|e tk tr|f]; intros Hne; [| | |congruence]; lia.
Qed.

Theorem request_work_linear : forall W b ms hc cap buf, 1 <= W ->
  work_ok (request_prog (env_of W b) (S (List.length buf)) ms hc cap) buf.
Proof.
  intros W b ms hc cap buf HW. apply work_from_lin.
  - apply lin_request_prog; [lia|apply env_of_lin; [lia|exact HW]].
  - apply cons_request_prog. apply env_of_cons.
Qed.
Print Assumptions request_work_linear.

Theorem response_work_linear : forall W b ms hc cap buf, 1 <= W ->
  work_ok (response_prog (env_of W b) (S (List.length buf)) ms hc cap) buf.
Proof.
  intros W b ms hc cap buf HW. apply work_from_lin.
  - apply lin_response_prog; [lia|apply env_of_lin; [lia|exact HW]].
  - apply cons_response_prog. apply env_of_cons.
Qed.
Print Assumptions response_work_linear.

Theorem headers_work_linear : forall W b cap buf, 1 <= W ->
  work_ok (headers_only_prog (env_of W b) (S (List.length buf)) cap) buf.
Proof.
  intros W b cap buf HW. apply work_from_lin.
  - unfold headers_only_prog. eapply lin_weaken; [apply lin_headers_prog; [lia|apply env_of_lin; [lia|exact HW]]| |]; lia.
  - apply cons_headers_prog. apply env_of_cons.
Qed.
Print Assumptions headers_work_linear.

Theorem chunk_work_linear : forall dbg buf,
  work_ok (chunk_loop dbg (S (List.length buf)) 0 true false 0) buf.
Proof.
  intros dbg buf. apply work_from_lin.
  - eapply lin_weaken; [apply lin_chunk_loop; lia| |]; lia.
  - apply cons_chunk_loop.
Qed.
Print Assumptions chunk_work_linear.

(* when a call completes, every byte up to the cursor has been moved over exactly once *)
Theorem request_travel_exact : forall W b ms hc cap buf x c',
  request_prog (env_of W b) (S (List.length buf)) ms hc cap (cur_new buf) = Done x c' ->
  travel c' + List.length (rest c') = List.length buf.
Proof.
  intros W b ms hc cap buf x c' H.
  pose proof (cons_request_prog (env_of W b) (env_of_cons W b) (S (List.length buf)) hc ms cap (cur_new buf)) as Hc.
  rewrite H in Hc. exact Hc.
Qed.
Print Assumptions request_travel_exact.

(* the one backward-capable operation of iter.rs is never called *)
Theorem set_cursor_never_called : forall f, In f crate_files -> mem "set_cursor" (fn_methods f) = false.
Proof.
  assert (H : forallb (fun f => negb (mem "set_cursor" (fn_methods f))) crate_files = true) by (vm_compute; reflexivity).
  intros f Hf. rewrite forallb_forall in H. apply negb_true_iff. apply H. exact Hf.
Qed.
Print Assumptions set_cursor_never_called.

(* non-vacuity: a folded, whitespace-padded value on the SWAR backend *)
Example work_example :
  let buf := [71;69;84;32;47;32;72;84;84;80;47;49;46;49;13;10; 65;58;32;98;32;32;13;10;32;99;13;10; 13;10]%N in
  let '(cls, tk, tr) := run_work (request_prog (env_of 8 BSwar) (S (List.length buf)) false (mkhcfg false true false false) 4) buf in
  cls = 0%N /\ tr = 30 /\ tk = 44.
Proof. vm_compute. repeat split; reflexivity. Qed.

From HV Require Model Api Backends.
From HV.Proofs Require Erase.

Definition class_of (st : Model.status) : N :=
  match st with Model.Complete _ => 0%N | Model.Partial => 1%N | Model.Error _ => 2%N | Model.Faulted _ => 3%N end.
Definition c_hcfg (h : Model.hcfg) : hcfg :=
  mkhcfg (Model.allow_spaces_after_header_name h) (Model.allow_obsolete_multiline_headers h)
         (Model.allow_space_before_first_header_name h) (Model.ignore_invalid_headers h).
Lemma hc_er_c_hcfg h : Erase.hc_er (c_hcfg h) = h.
Proof. destruct h; reflexivity. Qed.

Lemma class_agree {A} (pc : P A) (m : Cursor.P nat) buf st :
  (forall c, match pc c, m (Erase.er c) with
             | Done _ _, Cursor.Done _ _ => True | Part _ _, Cursor.Part => True
             | Fail e _ _, Cursor.Fail e' => e = e' | Fault f, Cursor.Fault f' => f = f' | _, _ => False end) ->
  Erase.agree_st (m (Cursor.cur_new buf)) st ->
  fst (fst (run_work pc buf)) = class_of st.
Proof.
  intros H1 H2. unfold run_work. specialize (H1 (cur_new buf)). change (Erase.er (cur_new buf)) with (Cursor.cur_new buf) in H1.
  destruct (pc (cur_new buf)), (m (Cursor.cur_new buf)), st; cbn in *; try contradiction; try discriminate; reflexivity.
Qed.
(* erasure gives more than class_agree asks for: equal results and equal cursors as well *)
Lemma class_agree_ers {A} (g : A -> nat) (pc : P A) m buf st :
  Erase.ersf g pc m -> Erase.agree_st (m (Cursor.cur_new buf)) st -> fst (fst (run_work pc buf)) = class_of st.
Proof.
  intros H. apply class_agree. intros c. specialize (H c).
  destruct (pc c), (m (Erase.er c)); try contradiction; try exact Logic.I; exact H.
Qed.

Theorem cost_model_runs_the_model_request : forall W b cf buf rq arr,
  fst (fst (run_work (request_prog (env_of W b) (S (List.length buf))
                        (Api.allow_multiple_spaces_in_request_line_delimiters cf)
                        (c_hcfg (Api.request_hcfg cf)) (List.length arr)) buf))
  = class_of (fst (fst (Api.request_core (Backends.env_of W (Erase.be_er b)) cf buf rq arr))).
Proof.
  intros W b cf buf rq arr. eapply class_agree_ers.
  - apply Erase.ers_request_prog, Erase.env_of_ers.
  - rewrite hc_er_c_hcfg. apply Erase.request_plain_agree.
Qed.
Print Assumptions cost_model_runs_the_model_request.

Theorem cost_model_runs_the_model_response : forall W b cf buf rp arr,
  fst (fst (run_work (response_prog (env_of W b) (S (List.length buf))
                        (Api.allow_multiple_spaces_in_response_status_delimiters cf)
                        (c_hcfg (Api.response_hcfg cf)) (List.length arr)) buf))
  = class_of (fst (fst (Api.response_core (Backends.env_of W (Erase.be_er b)) cf buf rp arr))).
Proof.
  intros W b cf buf rp arr. eapply class_agree_ers.
  - apply Erase.ers_response_prog, Erase.env_of_ers.
  - rewrite hc_er_c_hcfg. apply Erase.response_plain_agree.
Qed.
Print Assumptions cost_model_runs_the_model_response.

Theorem cost_model_runs_the_model_headers : forall W b src dst,
  fst (fst (run_work (headers_only_prog (env_of W b) (S (List.length src)) (List.length dst)) src))
  = class_of (fst (fst (Api.parse_headers (Backends.env_of W (Erase.be_er b)) src dst))).
Proof.
  intros W b src dst. eapply class_agree_ers.
  - apply Erase.ers_headers_prog, Erase.env_of_ers.
  - apply Erase.headers_only_agree.
Qed.
Print Assumptions cost_model_runs_the_model_headers.

Theorem cost_model_runs_the_model_chunk : forall dbg buf,
  fst (fst (run_work (chunk_loop dbg (S (List.length buf)) 0 true false 0) buf))
  = class_of (fst (Model.parse_chunk_size dbg buf)).
Proof.
  intros dbg buf. unfold run_work, Model.parse_chunk_size.
  pose proof (Erase.ers_chunk_loop dbg (S (List.length buf)) 0%N true false 0 (cur_new buf)) as H.
  change (Erase.er (cur_new buf)) with (Cursor.cur_new buf) in H.
  destruct (chunk_loop _ _ _ _ _ _ _), (Model.chunk_loop _ _ _ _ _ _ _); try contradiction; reflexivity.
Qed.
Print Assumptions cost_model_runs_the_model_chunk.

(* Tie to the source.  The cost model runs the model (`cost_model_runs_the_model_*` above: same outcome once the
   counters are forgotten), and the model is what the functions TRANSLATED from /repo/src/lib.rs on this run compute
   (Proofs/Src*.v), for every environment whose scanners only move forward -- so the work bounds above are bounds on
   the cursor operations of the translated source, and a change to lib.rs that alters behaviour breaks this obligation
   of C20 as well.  (Work that does not go through the cursor -- re-reading a slice behind it -- is outside the cost
   model by construction; that half of the property is decided by the wall-clock scaling runs.) *)
From HV.Proofs Require Mono BackendsFwd SrcReq SrcResp SrcPH SrcChunk.
Theorem source_tie : forall E, Mono.env_fwd E ->
  SrcReq.request_source_is_model E /\ SrcResp.response_source_is_model E /\ SrcPH.headers_source_is_model E.
Proof.
  intros E HE. split; [apply SrcReq.src_tie_request; exact HE|]. split; [apply SrcResp.src_tie_response; exact HE|].
  apply SrcPH.src_tie_headers; exact HE.
Qed.
Print Assumptions source_tie.
Theorem source_tie_backends : forall W be,
  SrcReq.request_source_is_model (Backends.env_of W be) /\ SrcResp.response_source_is_model (Backends.env_of W be) /\
  SrcPH.headers_source_is_model (Backends.env_of W be).
Proof. intros W be. apply source_tie, BackendsFwd.backends_fwd. Qed.
Print Assumptions source_tie_backends.
