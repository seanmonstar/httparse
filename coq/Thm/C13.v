(* Thm/C13.v -- results are independent of the scanner backend, the build profile and thread
   timing; the cfg lattice provides exactly one implementation of each scanner.
   PARTIAL: the hardware memory model, is_x86_feature_detected! and code generation are
   modelled (deterministic detect, per-location coherence), not verified; "alignment-free"
   is enforced by the translator (aligned-load intrinsics are rejected), not by a theorem. *)
From Coq Require Import List NArith Bool.
From HV Require Import Cursor Scan Model Api Spec Backends CfgBase.
From HV.Proofs Require Import Base EnvOk Refine Entries BackendsOk Chunk CfgLattice RuntimeCell.
Import ListNotations.

(* The results are a function of the buffer alone for ANY two environments that meet the scanner
   interface: both equal the reference parsers. *)
Lemma env_independent E1 E2 : env_ok E1 -> env_ok E2 -> forall buf, bytes_ok buf ->
  (forall e cf arr rq, request_call E1 e cf buf arr rq = request_call E2 e cf buf arr rq) /\
  (forall e cf arr rp, response_call E1 e cf buf arr rp = response_call E2 e cf buf arr rp) /\
  (forall dst, parse_headers E1 buf dst = parse_headers E2 buf dst).
Proof.
  intros H1 H2 buf Hb. split; [|split]; intros.
  - etransitivity; [|symmetry]; apply request_call_ref; assumption.
  - etransitivity; [|symmetry]; apply response_call_ref; assumption.
  - etransitivity; [|symmetry]; apply parse_headers_ref; assumption.
Qed.

(* every backend (swar with 4- or 8-byte words, sse4.2, avx2, neon, runtime with any cached id)
   gives the same result on every request / response / header block *)
Theorem backend_independent : forall W1 W2, 0 < W1 -> 0 < W2 -> forall be1 be2 buf, bytes_ok buf ->
  (forall e cf arr rq, request_call (env_of W1 be1) e cf buf arr rq = request_call (env_of W2 be2) e cf buf arr rq) /\
  (forall e cf arr rp, response_call (env_of W1 be1) e cf buf arr rp = response_call (env_of W2 be2) e cf buf arr rp) /\
  (forall dst, parse_headers (env_of W1 be1) buf dst = parse_headers (env_of W2 be2) buf dst).
Proof. intros W1 W2 H1 H2 be1 be2. apply env_independent; apply env_of_ok; assumption. Qed.
Print Assumptions backend_independent.

(* the only cfg!(debug_assertions)-dependent branch is dead *)
Theorem profile_independent : forall d1 d2 buf, parse_chunk_size d1 buf = parse_chunk_size d2 buf.
Proof. intros. rewrite !Chunk.chunk_ref_eq. reflexivity. Qed.
Print Assumptions profile_independent.

(* the cfg lattice of src/simd/mod.rs, over all 64 cfg environments *)
Theorem cfg_exactly_one_provider : forall e : cfgenv, cfg_ok e = true.
Proof. exact CfgLattice.cfg_exactly_one_provider. Qed.
Print Assumptions cfg_exactly_one_provider.

Theorem build_script_table : forall b ar,
  cfg_ok (build_rs b ar) = true /\
  (ce_simd (build_rs b ar) = true -> be_std b = true) /\
  (ce_simd (build_rs b ar) = false -> ce_sse42 (build_rs b ar) = false /\ ce_avx2 (build_rs b ar) = false).
Proof. exact CfgLattice.build_script_table. Qed.
Print Assumptions build_script_table.

(* the relaxed-atomic cache: every thread ends with the detected id, under every interleaving
   of any number of threads *)
Theorem runtime_cell_safe : forall d, d <> 0%N -> forall n s, reachable d n s ->
  forall i t v, nth_error (threads s) i = Some t -> t_pc t = Finished v -> v = d.
Proof. intros d Hd n s Hr. exact (proj2 (RuntimeCell.runtime_cell_safe d n s Hr)). Qed.
Print Assumptions runtime_cell_safe.

(* non-vacuity: a two-thread race in which both threads load 0, both detect, both store *)
Example race_example : exists s,
  reachable 1 2 s /\ mo s = [0; 1; 1]%N /\
  threads s = [mkthread (Finished 1%N) 1; mkthread (Finished 1%N) 2].
Proof.
  pose proof (RInit 1 2) as R.
  eapply RStep in R; [|eapply (SLoad 1 _ 0 _ 0 0%N); reflexivity].
  eapply RStep in R; [|eapply (SLoad 1 _ 1 _ 0 0%N); reflexivity].
  eapply RStep in R; [|eapply (SBranch0 1 _ 0); reflexivity].
  eapply RStep in R; [|eapply (SBranch0 1 _ 1); reflexivity].
  eapply RStep in R; [|eapply (SStore 1 _ 0); reflexivity].
  eapply RStep in R; [|eapply (SStore 1 _ 1); reflexivity].
  eexists. split; [exact R|]. split; reflexivity.
Qed.

(* ---- tie to the source: every statement above is about Model.v / Api.v; Proofs/Src*.v prove that the
   functions TRANSLATED from /repo/src/lib.rs on this run (Generated/Lib.v, LibApi.v) compute the same
   results, for every environment whose scanners only move forward (all concrete backends do), so each
   theorem of this file holds of the translated source by rewriting with `source_tie`.  Only the entry-point
   families this property speaks about are imported (Req, Resp) ---- *)
From HV Require Import Backends.
From HV.Proofs Require Import Mono BackendsFwd SrcReq SrcResp.
Theorem source_tie : forall E, env_fwd E -> request_source_is_model E /\ response_source_is_model E.
Proof. intros E HE. split; [apply src_tie_request; exact HE|apply src_tie_response; exact HE]. Qed.
Print Assumptions source_tie.
Theorem source_tie_backends : forall W be, request_source_is_model (env_of W be) /\ response_source_is_model (env_of W be).
Proof. intros W be. apply source_tie, backends_fwd. Qed.
Print Assumptions source_tie_backends.

(* ---- the cached-backend cell AS TRANSLATED.  `get_runtime_feature` of src/simd/runtime.rs is translated on every run
   into the instruction language of RtProg.v (Generated/Runtime.v, G15: load / detect / store / move / if-zero /
   return over the function's locals).  Proofs/RuntimeProg.v proves an abstract interpreter (what is known about a
   register: 0, d, "0 or d", anything) sound for EVERY program of that language, for any number of threads and every
   interleaving of their relaxed loads and stores (a load may return any value of the modification order not older
   than what the thread has seen).  Run on the program of this run it accepts; hence: the cell only ever holds 0 or
   the detected id d, every call returns, and every call returns d -- whichever thread wins the race.  (The
   hand-written transition system above, `runtime_cell_safe`, is the same statement about the one shape of the
   function spelled out in Proofs/RuntimeCell.v; this one follows the source.) ---- *)
From HV Require RtProg.
From HV.Generated Require Runtime Cfg.
From HV.Proofs Require RuntimeProg.
Theorem runtime_cell_as_translated : forall d, d <> 0%N -> forall n s,
  RtProg.reachable d Runtime.g_get_runtime_feature n s ->
  Forall (fun v => v = 0%N \/ v = d) (RtProg.mo s) /\
  (forall i t, nth_error (RtProg.threads s) i = Some t -> RtProg.t_k t = [] -> RtProg.t_out t = Some d) /\
  (forall i t v, nth_error (RtProg.threads s) i = Some t -> RtProg.t_out t = Some v -> v = d).
Proof.
  intros d Hd. apply (RuntimeProg.acheck_sound d Hd Runtime.g_get_runtime_feature RtProg.rt_fuel).
  vm_compute. reflexivity.
Qed.
Print Assumptions runtime_cell_as_translated.
(* the three ids detect_runtime_feature can return (Generated/Cfg.v) are not 0, the cell's initial value *)
Theorem detected_ids_nonzero : Cfg.RT_AVX2 <> 0%N /\ Cfg.RT_SSE42 <> 0%N /\ Cfg.RT_NOP <> 0%N.
Proof. repeat split; discriminate. Qed.
Print Assumptions detected_ids_nonzero.
(* the interpreter is not vacuous: it rejects a cell that publishes before it has detected, and one that returns
   what it loaded without looking at it *)
Example runtime_checker_rejects :
  RtProg.acheck_prog [RtProg.ILoad 0; RtProg.IStore 0; RtProg.IRet 0] = false /\
  RtProg.acheck_prog [RtProg.ILoad 0; RtProg.IRet 0] = false /\
  RtProg.acheck_prog [RtProg.ILoad 0; RtProg.IIf false 0 [RtProg.IDetect 0; RtProg.IStore 0] []; RtProg.IRet 0] = false.
Proof. repeat split; vm_compute; reflexivity. Qed.

(* ---- the scanner loop shells and SWAR helpers translated from /repo/src/simd/*.rs on this run are the ones
   `Backends.env_of` is built from (Proofs/TieLoops.v, TieSwarFns.v): a rewritten loop shell breaks this obligation of
   this property too ---- *)
From HV.Proofs Require TieLoops TieSwarFns.
Theorem loop_shells_of_this_run : TieLoops.loop_shells_tied.
Proof. exact TieLoops.loop_shells_tied_pf. Qed.
Print Assumptions loop_shells_of_this_run.
