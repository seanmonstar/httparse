(* Thm/C16.v -- all entry points agree. *)
From Coq Require Import List NArith Bool Lia.
From HV Require Import Cursor Scan Model Api Spec.
From HV.Proofs Require Import Base EnvOk Refine Entries Storage Shift.
Import ListNotations.

(* parse / with-config / the two uninit variants: same status, and on Complete the same
   fields and headers, for the same buffer, effective configuration and capacity *)
Theorem request_entries_agree : forall E, env_ok E -> forall e1 e2 cf buf arr1 arr2 rq1 rq2, bytes_ok buf ->
  eff_cfg e1 cf = eff_cfg e2 cf -> req_cap e1 arr1 rq1 = req_cap e2 arr2 rq2 ->
  let r1 := request_call E e1 cf buf arr1 rq1 in
  let r2 := request_call E e2 cf buf arr2 rq2 in
  fst (fst r1) = fst (fst r2) /\
  (forall n, fst (fst r1) = Complete n -> snd (fst r1) = snd (fst r2)).
Proof.
  intros E HE e1 e2 cf buf arr1 arr2 rq1 rq2 Hb Hcf Hcap. cbn zeta.
  rewrite !(request_call_ref E HE) by exact Hb. rewrite !req_call_status, Hcf, Hcap. split; [reflexivity|].
  intros n Hn. rewrite (req_call_complete e1 cf buf arr1 rq1 n) by (rewrite Hcf, Hcap; exact Hn).
  rewrite (req_call_complete e2 cf buf arr2 rq2 n) by exact Hn. rewrite Hcf, Hcap. reflexivity.
Qed.
Print Assumptions request_entries_agree.

Theorem response_entries_agree : forall E, env_ok E -> forall e1 e2 cf buf arr1 arr2 rp1 rp2, bytes_ok buf ->
  eff_cfg e1 cf = eff_cfg e2 cf -> resp_cap e1 arr1 rp1 = resp_cap e2 arr2 rp2 ->
  let r1 := response_call E e1 cf buf arr1 rp1 in
  let r2 := response_call E e2 cf buf arr2 rp2 in
  fst (fst r1) = fst (fst r2) /\
  (forall n, fst (fst r1) = Complete n -> snd (fst r1) = snd (fst r2)).
Proof.
  intros E HE e1 e2 cf buf arr1 arr2 rp1 rp2 Hb Hcf Hcap. cbn zeta.
  rewrite !(response_call_ref E HE) by exact Hb. rewrite !resp_call_status, Hcf, Hcap. split; [reflexivity|].
  intros n Hn. rewrite (resp_call_complete e1 cf buf arr1 rp1 n) by (rewrite Hcf, Hcap; exact Hn).
  rewrite (resp_call_complete e2 cf buf arr2 rp2 n) by exact Hn. rewrite Hcf, Hcap. reflexivity.
Qed.
Print Assumptions response_entries_agree.

(* the header part of a request / response IS ref_headers on the bytes after the start line,
   and ref_headers is position independent: parse_headers(h) shifted by the start-line length *)
Theorem parse_headers_agrees : forall hc cap k h,
  ref_headers hc cap k h =
  (let (st, hs) := ref_headers hc cap 0 h in (shstatus k st, map (shhdr k) hs)).
Proof. exact ref_headers_shift. Qed.
Print Assumptions parse_headers_agrees.

Theorem request_header_part : forall cf cap buf u o h,
  snd (ref_request_line (allow_multiple_spaces_in_request_line_delimiters cf) buf) = ROk u o h ->
  let (st, hs) := ref_headers (request_hcfg cf) cap 0 h in
  rq_status (ref_request cf cap buf) = shstatus o st /\
  rq_headers (ref_request cf cap buf) = map (shhdr o) hs.
Proof.
  intros cf cap buf u o h H. unfold ref_request.
  destruct (ref_request_line _ buf) as [st0 r]. cbn [snd] in H. subst r.
  rewrite (ref_headers_shift (request_hcfg cf) cap o h).
  destruct (ref_headers (request_hcfg cf) cap 0 h) as [st hs]. split; reflexivity.
Qed.
Print Assumptions request_header_part.

Theorem response_header_part : forall cf cap buf u o h,
  snd (ref_status_line (allow_multiple_spaces_in_response_status_delimiters cf) buf) = ROk u o h ->
  let (st, hs) := ref_headers (response_hcfg cf) cap 0 h in
  rp_status (ref_response cf cap buf) = shstatus o st /\
  rp_headers (ref_response cf cap buf) = map (shhdr o) hs.
Proof.
  intros cf cap buf u o h H. unfold ref_response.
  destruct (ref_status_line _ buf) as [st0 r]. cbn [snd] in H. subst r.
  rewrite (ref_headers_shift (response_hcfg cf) cap o h).
  destruct (ref_headers (response_hcfg cf) cap 0 h) as [st hs]. split; reflexivity.
Qed.
Print Assumptions response_header_part.

Example shift_example :
  ref_headers hcfg_default 2 16 [65;58;32;98;13;10;13;10]%N = (Complete 24, [(Sub 16 [65%N], Sub 19 [98%N])]).
Proof. vm_compute. reflexivity. Qed.

(* ---- tie to the source: every statement above is about Model.v / Api.v; Proofs/Src*.v prove that the
   functions TRANSLATED from /repo/src/lib.rs on this run (Generated/Lib.v, LibApi.v) compute the same
   results, for every environment whose scanners only move forward (all concrete backends do), so each
   theorem of this file holds of the translated source by rewriting with `source_tie`.  Only the entry-point
   families this property speaks about are imported (Req, Resp, PH) ---- *)
From HV Require Import Backends.
From HV.Proofs Require Import Mono BackendsFwd SrcReq SrcResp SrcPH.
Theorem source_tie : forall E, env_fwd E -> request_source_is_model E /\ response_source_is_model E /\ headers_source_is_model E.
Proof.
  intros E HE. split; [apply src_tie_request; exact HE|]. split; [apply src_tie_response; exact HE|].
  apply src_tie_headers; exact HE.
Qed.
Print Assumptions source_tie.
Theorem source_tie_backends : forall W be, request_source_is_model (env_of W be) /\ response_source_is_model (env_of W be) /\ headers_source_is_model (env_of W be).
Proof. intros W be. apply source_tie, backends_fwd. Qed.
Print Assumptions source_tie_backends.

(* ---- the two `parse_with_config` wrappers are translated from /repo/src/lib.rs on this run as well
   (Generated/LibApi.v: g_request_with_config_body / g_response_with_config_body -- `mem::take(&mut self.headers)`,
   the pointer casts, the call of the core with its Result as a value, `self.headers = ..` in the non-Complete arm)
   and proved equal to Api.request_with_config / response_with_config, which the entry-point theorems above are
   about; the remaining delegations (parse, ParserConfig::parse_*, *_with_uninit_headers) are one expression each and
   translated too (G14, below); only the constructor `new` is compared with its expected token text ---- *)
From HV Require Import Imp.
From HV.Generated Require Import LibApi.
From HV.Proofs Require Import TieReq TieResp.
Theorem with_config_wrappers_as_translated : forall E, env_fwd E -> forall cf buf,
  (forall rq x y,
     fin_reqw (Imp.ifun (g_request_with_config_body E (S (length buf)) cf buf)
                        (g_request_with_config_init (q_method rq) (q_path rq) (q_version rq) (q_hdrs rq) x y) (cur_new buf))
     = request_with_config E cf buf rq) /\
  (forall rp x y,
     fin_respw (Imp.ifun (g_response_with_config_body E (S (length buf)) cf buf)
                         (g_response_with_config_init (p_version rp) (p_code rp) (p_reason rp) (p_hdrs rp) x y) (cur_new buf))
     = response_with_config E cf buf rp).
Proof.
  intros E HE cf buf. split; intros.
  - apply tie_request_with_config. exact HE.
  - apply tie_response_with_config. exact HE.
Qed.
Print Assumptions with_config_wrappers_as_translated.

(* ---- the seven one-expression delegations, translated from /repo/src/lib.rs on this run (Generated/LibApi.v, G14:
   receiver, callee and each argument read from the source; arguments matched to the callee's parameters by the
   callee's own parameter names), are exactly the routes `source_tie` takes: every entry point hands its buffer, its
   array and ITS configuration (the default one for `parse` / `parse_with_uninit_headers`) to `parse_with_config` (Xw)
   or `parse_with_config_and_uninit_headers` (Xc) of its kind, and nothing else.  A delegation that drops the caller's
   configuration, swaps two arguments or forwards to another entry point translates to another term and breaks this
   theorem and `source_tie` ---- *)
Theorem delegations_as_translated : forall (V R : Type) (Xw : config -> list N -> V -> R)
    (Xc : config -> list N -> V -> list slot -> R) cf buf v arr,
  gd_request_parse Xw Xc buf v = Xw config_default buf v /\
  gd_response_parse Xw Xc buf v = Xw config_default buf v /\
  gd_parse_request Xw Xc cf buf v = Xw cf buf v /\
  gd_parse_response Xw Xc cf buf v = Xw cf buf v /\
  gd_request_parse_with_uninit_headers Xw Xc buf v arr = Xc config_default buf v arr /\
  gd_parse_request_with_uninit_headers Xw Xc cf buf v arr = Xc cf buf v arr /\
  gd_parse_response_with_uninit_headers Xw Xc cf buf v arr = Xc cf buf v arr.
Proof. intros. repeat split; reflexivity. Qed.
Print Assumptions delegations_as_translated.

(* ---- the scanners and class tables of THIS run.  The theorems above hold for every environment E with `env_ok E`
   (each scanner stops exactly at the first byte outside its class; the class predicates are the classes of the
   property).  Every concrete backend -- word-at-a-time with any word width, SSE4.2, AVX2, NEON, the runtime dispatch
   with any cached id -- built from the kernels, loop shells and CLASS TABLES translated from /repo on this run
   satisfies it (Proofs/BackendsOk.v over Generated/{Classes,Swar,Sse42,Avx2,Neon}.v; Thm/C12.v states the parts), so
   the theorems hold of the code as it is now; a table entry or a kernel that is not the class breaks this obligation
   of THIS property, not only C12's ---- *)
From HV Require Backends.
From HV.Proofs Require BackendsOk.
Theorem backends_of_this_run_ok : forall W, 0 < W -> forall be, env_ok (Backends.env_of W be).
Proof. exact BackendsOk.env_of_ok. Qed.
Print Assumptions backends_of_this_run_ok.
(* ... and the scanner loop shells and SWAR helpers translated on this run are the ones `Backends.env_of` is built from *)
From HV.Proofs Require TieLoops TieSwarFns.
Theorem loop_shells_of_this_run : TieLoops.loop_shells_tied.
Proof. exact TieLoops.loop_shells_tied_pf. Qed.
Print Assumptions loop_shells_of_this_run.

