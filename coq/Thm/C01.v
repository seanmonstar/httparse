(* Thm/C01.v -- total and memory-safe, at the level of the source-level model: every checked
   operation of the model (advance, slice_skip, peek_ahead, K-byte loads of every backend,
   slot writes) meets its precondition on every path, every loop terminates within its fuel,
   no checked arithmetic overflows; offsets stay inside the buffer and the array keeps its
   length.  PARTIAL: what the model cannot exhibit (the loads LLVM actually issues, pointer
   provenance, stack use of the real binary) is covered by the guard-page / debug-assertion
   runs of the correspondence check, not by these theorems. *)
From Coq Require Import List NArith Bool.
From HV Require Import Cursor Scan Model Api Spec.
From HV.Proofs Require Import Base EnvOk Refine Entries Chunk.
From HV.Proofs Require LiftTop.
Import ListNotations.

(* requests: never Fault (which includes OutOfFuel = non-termination within the fuel) *)
Theorem request_no_fault : forall E, env_ok E -> forall e cf buf arr rq f, bytes_ok buf ->
  fst (fst (request_call E e cf buf arr rq)) <> Faulted f.
Proof. exact LiftTop.nf_request. Qed.
Print Assumptions request_no_fault.

Theorem response_no_fault : forall E, env_ok E -> forall e cf buf arr rp f, bytes_ok buf ->
  fst (fst (response_call E e cf buf arr rp)) <> Faulted f.
Proof. exact LiftTop.nf_response. Qed.
Print Assumptions response_no_fault.

Theorem headers_no_fault : forall E, env_ok E -> forall src dst f, bytes_ok src ->
  fst (fst (parse_headers E src dst)) <> Faulted f.
Proof. exact LiftTop.nf_headers. Qed.
Print Assumptions headers_no_fault.

Theorem chunk_no_fault : forall dbg buf f, fst (parse_chunk_size dbg buf) <> Faulted f.
Proof. exact LiftTop.nf_chunk. Qed.
Print Assumptions chunk_no_fault.

(* Complete(n) never points past the buffer *)
Theorem request_offset_in_buffer : forall E, env_ok E -> forall e cf buf arr rq n, bytes_ok buf ->
  fst (fst (request_call E e cf buf arr rq)) = Complete n -> n <= length buf.
Proof.
  intros E HE e cf buf arr rq n Hb. rewrite (request_call_ref E HE) by exact Hb.
  rewrite req_call_status. apply ref_request_bound.
Qed.
Print Assumptions request_offset_in_buffer.
Theorem response_offset_in_buffer : forall E, env_ok E -> forall e cf buf arr rp n, bytes_ok buf ->
  fst (fst (response_call E e cf buf arr rp)) = Complete n -> n <= length buf.
Proof.
  intros E HE e cf buf arr rp n Hb. rewrite (response_call_ref E HE) by exact Hb.
  rewrite resp_call_status. apply ref_response_bound.
Qed.
Print Assumptions response_offset_in_buffer.

(* nothing is written outside the caller's array: it keeps its length *)
Theorem request_array_length : forall E, env_ok E -> forall e cf buf arr rq, bytes_ok buf ->
  length (snd (request_call E e cf buf arr rq)) = length (if uses_array e then arr else q_hdrs rq).
Proof.
  intros E HE e cf buf arr rq Hb. rewrite (request_call_ref E HE) by exact Hb.
  rewrite req_call_array. apply slots_of_length.
  unfold req_cap. pose proof (ref_request_headers_len (eff_cfg e cf) (if uses_array e then length arr else length (q_hdrs rq)) buf) as H.
  destruct (uses_array e); exact H.
Qed.
Print Assumptions request_array_length.
Theorem response_array_length : forall E, env_ok E -> forall e cf buf arr rp, bytes_ok buf ->
  length (snd (response_call E e cf buf arr rp)) = length (if uses_array e then arr else p_hdrs rp).
Proof.
  intros E HE e cf buf arr rp Hb. rewrite (response_call_ref E HE) by exact Hb.
  rewrite resp_call_array. apply slots_of_length.
  unfold resp_cap. pose proof (ref_response_headers_len (eff_cfg e cf) (if uses_array e then length arr else length (p_hdrs rp)) buf) as H.
  destruct (uses_array e); exact H.
Qed.
Print Assumptions response_array_length.

(* non-vacuity: a buffer on which the POST fast path needs peek_ahead(4) at the very end *)
Example no_fault_example :
  bytes_ok [80;79;83;84]%N /\
  forall E, env_ok E -> fst (fst (request_call E EParse config_default [80;79;83;84]%N [] (request_new []))) = Partial.
Proof.
  split; [repeat constructor|]. intros E HE. rewrite (request_call_ref E HE) by repeat constructor. reflexivity.
Qed.

(* ---- tie to the source: every statement above is about Model.v / Api.v; Proofs/Src*.v prove that the
   functions TRANSLATED from /repo/src/lib.rs on this run (Generated/Lib.v, LibApi.v) compute the same
   results, for every environment whose scanners only move forward (all concrete backends do), so each
   theorem of this file holds of the translated source by rewriting with `source_tie`.  Only the entry-point
   families this property speaks about are imported (Req, Resp, PH, Chunk) ---- *)
From HV Require Import Backends.
From HV.Proofs Require Import Mono BackendsFwd SrcReq SrcResp SrcPH SrcChunk.
Theorem source_tie : forall E, env_fwd E -> request_source_is_model E /\ response_source_is_model E /\ headers_source_is_model E /\ chunk_source_is_model.
Proof.
  intros E HE. split; [apply src_tie_request; exact HE|]. split; [apply src_tie_response; exact HE|].
  split; [apply src_tie_headers; exact HE|apply src_tie_chunk].
Qed.
Print Assumptions source_tie.
Theorem source_tie_backends : forall W be, request_source_is_model (env_of W be) /\ response_source_is_model (env_of W be) /\ headers_source_is_model (env_of W be) /\ chunk_source_is_model.
Proof. intros W be. apply source_tie, backends_fwd. Qed.
Print Assumptions source_tie_backends.

(* the translated source never faults: no guard the translator emitted (u8/u16/i32/u64 overflow, usize
   underflow, slice index) fires, no checked cursor operation fails, every loop ends within its fuel *)
Theorem src_request_no_fault : forall E, env_ok E -> env_fwd E -> forall e cf buf arr rq f, bytes_ok buf ->
  fst (fst (src_request_call E e cf buf arr rq)) <> Faulted f.
Proof. intros E HE HF e cf buf arr rq f Hb. rewrite src_request_call_eq by exact HF. apply request_no_fault; assumption. Qed.
Print Assumptions src_request_no_fault.
Theorem src_response_no_fault : forall E, env_ok E -> env_fwd E -> forall e cf buf arr rp f, bytes_ok buf ->
  fst (fst (src_response_call E e cf buf arr rp)) <> Faulted f.
Proof. intros E HE HF e cf buf arr rp f Hb. rewrite src_response_call_eq by exact HF. apply response_no_fault; assumption. Qed.
Print Assumptions src_response_no_fault.
Theorem src_headers_no_fault : forall E, env_ok E -> env_fwd E -> forall src dst f, bytes_ok src ->
  fst (fst (src_parse_headers E src dst)) <> Faulted f.
Proof. intros E HE HF src dst f Hb. rewrite src_parse_headers_eq by exact HF. apply headers_no_fault; assumption. Qed.
Print Assumptions src_headers_no_fault.
Theorem src_chunk_no_fault : forall dbg buf f, fst (src_parse_chunk_size dbg buf) <> Faulted f.
Proof. intros. rewrite src_parse_chunk_size_eq. apply chunk_no_fault. Qed.
Print Assumptions src_chunk_no_fault.

(* ---- iter.rs: the methods of `Bytes`, translated on this run into ADDRESS-level code in which every
   `*p`, `p.add(n)`, `p.sub(n)` and pointer subtraction is a checked operation (Generated/Iter.v, Ptr.v), are
   simulated by the Cursor.v operations the model and the translated lib.rs functions are built from: at every
   base address, for every buffer and every cursor state standing at a position of that buffer, a method whose
   Cursor.v counterpart returns does so too, with the corresponding value and state, WITHOUT faulting -- every
   byte it reads lies inside the caller's buffer, every slice it hands out is a sub-slice of it -- and it faults
   where the counterpart's `unsafe` precondition fails.  (The model never faults: theorems above.) ---- *)
From HV Require Import Ptr ImpLib.
From HV.Generated Require Import Iter.
From HV.Proofs Require Import TieIter.
Theorem bytes_methods_refine_cursor : forall B data c, repr data c ->
  i_peek (mkpmem B data) (pst_of B c) = PDone (hd_error (rest c)) (pst_of B c) /\
  match next_opt c with
  | Done o c' => i_next (mkpmem B data) (pst_of B c) = PDone o (pst_of B c') /\ repr data c'
  | _ => False end /\
  (forall n, match advance n c with
             | Done _ c' => i_advance n (mkpmem B data) (pst_of B c) = PDone tt (pst_of B c') /\ repr data c'
             | Fault _ => exists f, i_advance n (mkpmem B data) (pst_of B c) = PFault f
             | _ => False end) /\
  (forall n, match peek_ahead n c with
             | Done o c' => i_peek_ahead n (mkpmem B data) (pst_of B c) = PDone o (pst_of B c) /\ c' = c
             | Fault _ => exists f, i_peek_ahead n (mkpmem B data) (pst_of B c) = PFault f
             | _ => False end) /\
  (forall n, exists o, i_peek_n n (mkpmem B data) (pst_of B c) = PDone o (pst_of B c) /\
                       option_map (fun pl => sl_bytes (read_slice (mkpmem B data) pl)) o = take n (rest c)) /\
  match slice c with
  | Done s c' => exists pl, i_slice (mkpmem B data) (pst_of B c) = PDone pl (pst_of B c') /\
                            read_slice (mkpmem B data) pl = s /\ repr data c'
  | _ => False end /\
  (forall k, match slice_skip k c with
             | Done s c' => exists pl, i_slice_skip k (mkpmem B data) (pst_of B c) = PDone pl (pst_of B c') /\
                                       read_slice (mkpmem B data) pl = s /\ repr data c'
             | Fault _ => exists f, i_slice_skip k (mkpmem B data) (pst_of B c) = PFault f
             | _ => False end) /\
  i_len (mkpmem B data) (pst_of B c) = PDone (length (rest c)) (pst_of B c).
Proof.
  intros B data c H. repeat apply conj.
  - apply tie_iter_peek; exact H.
  - apply tie_iter_next; exact H.
  - intros n. apply tie_iter_advance; exact H.
  - intros n. apply tie_iter_peek_ahead; exact H.
  - intros n. apply tie_iter_peek_n; exact H.
  - apply tie_iter_slice; exact H.
  - intros k. apply tie_iter_slice_skip; exact H.
  - apply tie_iter_len.
Qed.
Print Assumptions bytes_methods_refine_cursor.
Theorem bytes_new_is_cur_new : forall B buf,
  i_new (B, length buf) (mkpmem B buf) (mkpst 0 0 0) = PDone tt (pst_of B (cur_new buf)) /\ repr buf (cur_new buf).
Proof. exact tie_iter_new. Qed.
Print Assumptions bytes_new_is_cur_new.

(* ---- whole programs at ADDRESS level.  Proofs/Lift.v: every program built from the cursor operations,
   locals, loops, exceptions, guards and calls (a syntax tree `bP` / `bI`, constructed for each translated
   function by a tactic that only follows the shape of the generated term: Proofs/LiftLib.v) has an
   address-level program `cP` / `cI` -- the same control structure with each cursor operation replaced by
   the method translated from src/iter.rs over (base address, memory, three addresses) -- which runs in lock
   step with it from every cursor state, at every base address (`lifting_is_sound`).  Proofs/LiftTop.v puts
   the pieces together: Bytes::new, the translated entry point, the translated scanner loop shells of the
   chosen backend.  The address-level run of a whole parse yields exactly the model's result; since that is
   never a Fault, no `*p`, `p.add`, `p.sub`, pointer subtraction, from_raw_parts or K-byte vector load
   executed anywhere in the parse leaves [B, B + length buf). ---- *)
From HV.Proofs Require Import Lift LiftLib LiftTop.
Theorem lifting_is_sound : forall B data,
  (forall A p (d : bP B data A p), simP B data (cP B data d) p) /\
  (forall L R Bk A p (d : bI B data L R Bk A p), simI B data (cI B data d) p).
Proof. exact lift_sound. Qed.
Print Assumptions lifting_is_sound.

Theorem address_level_request : forall B W, 0 < W -> forall be cf buf rq arr, bytes_ok buf ->
  addr_request_core B W be cf buf rq arr = request_core (env_of W be) cf buf rq arr.
Proof. exact addr_request_core_model. Qed.
Print Assumptions address_level_request.
Theorem address_level_response : forall B W, 0 < W -> forall be cf buf rp arr, bytes_ok buf ->
  addr_response_core B W be cf buf rp arr = response_core (env_of W be) cf buf rp arr.
Proof. exact addr_response_core_model. Qed.
Print Assumptions address_level_response.
Theorem address_level_headers : forall B W, 0 < W -> forall be src dst, bytes_ok src ->
  addr_parse_headers B W be src dst = parse_headers (env_of W be) src dst.
Proof. exact addr_parse_headers_model. Qed.
Print Assumptions address_level_headers.
Theorem address_level_chunk : forall B dbg buf,
  addr_parse_chunk_size B dbg buf = parse_chunk_size dbg buf.
Proof. exact addr_parse_chunk_size_model. Qed.
Print Assumptions address_level_chunk.

Theorem address_level_never_faults : forall B W, 0 < W -> forall be buf, bytes_ok buf ->
  (forall cf rq arr f, fst (fst (addr_request_core B W be cf buf rq arr)) <> Faulted f) /\
  (forall cf rp arr f, fst (fst (addr_response_core B W be cf buf rp arr)) <> Faulted f) /\
  (forall dst f, fst (fst (addr_parse_headers B W be buf dst)) <> Faulted f) /\
  (forall dbg f, fst (addr_parse_chunk_size B dbg buf) <> Faulted f).
Proof.
  intros B W HW be buf Hb. pose proof (BackendsOk.env_of_ok W HW be) as HE. repeat split; intros.
  - rewrite addr_request_core_model by assumption.
    exact (request_no_fault _ HE EConfigUninit cf buf arr rq f Hb).
  - rewrite addr_response_core_model by assumption.
    exact (response_no_fault _ HE EConfigUninit cf buf arr rp f Hb).
  - rewrite addr_parse_headers_model by assumption. apply headers_no_fault; assumption.
  - rewrite addr_parse_chunk_size_model. apply chunk_no_fault.
Qed.
Print Assumptions address_level_never_faults.

(* non-vacuity: the address-level program RUNS: the request of Thm/C06's example placed at address 4096,
   AVX2 backend, two header slots *)
Example address_level_example :
  addr_request_core 4096 8 (BRuntime 1) config_default
    [71;69;84;32;47;120;32;72;84;84;80;47;49;46;49;13;10;65;58;32;98;13;10;13;10]%N (request_new []) [SOld 1; SOld 2]
  = (Complete 25,
     mkreq (Some (Sub 0 [71;69;84]%N)) (Some (Sub 4 [47;120]%N)) (Some 1%N) [SWritten (Sub 17 [65%N]) (Sub 20 [98%N])],
     [SWritten (Sub 17 [65%N]) (Sub 20 [98%N]); SOld 2]).
Proof. vm_compute. reflexivity. Qed.

(* the initialised-array entry points (Request::parse / ParserConfig::parse_request go through parse_with_config,
   which is translated too: take self.headers, cast, call the core, restore unless Complete) *)
Theorem address_level_request_with_config : forall B W, 0 < W -> forall be cf buf rq, bytes_ok buf ->
  addr_request_with_config B W be cf buf rq = request_with_config (env_of W be) cf buf rq.
Proof. exact addr_request_with_config_model. Qed.
Print Assumptions address_level_request_with_config.
Theorem address_level_response_with_config : forall B W, 0 < W -> forall be cf buf rp, bytes_ok buf ->
  addr_response_with_config B W be cf buf rp = response_with_config (env_of W be) cf buf rp.
Proof. exact addr_response_with_config_model. Qed.
Print Assumptions address_level_response_with_config.

(* ---- the scanner loop shells and SWAR helpers translated from /repo/src/simd/*.rs on this run are the ones
   `Backends.env_of` is built from (Proofs/TieLoops.v, TieSwarFns.v): a rewritten loop shell breaks this obligation of
   this property too ---- *)
From HV.Proofs Require TieLoops TieSwarFns.
Theorem loop_shells_of_this_run : TieLoops.loop_shells_tied.
Proof. exact TieLoops.loop_shells_tied_pf. Qed.
Print Assumptions loop_shells_of_this_run.
