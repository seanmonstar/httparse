(* Thm/C18.v -- history independence: the status of a call, and the whole value after a
   Complete, are functions of (entry point, configuration, buffer, capacity) only -- whatever
   earlier calls did to the same Request / Response value or header array. *)
From Coq Require Import List NArith Bool.
From HV Require Import Cursor Scan Model Api Spec.
From HV.Proofs Require Import Base EnvOk Refine Entries.
Import ListNotations.

Theorem request_history_independent : forall E, env_ok E -> forall e cf buf arr1 arr2 rq1 rq2, bytes_ok buf ->
  req_cap e arr1 rq1 = req_cap e arr2 rq2 ->
  let r1 := request_call E e cf buf arr1 rq1 in
  let r2 := request_call E e cf buf arr2 rq2 in
  fst (fst r1) = fst (fst r2) /\
  (forall n, fst (fst r1) = Complete n -> snd (fst r1) = snd (fst r2)).
Proof.
  intros E HE e cf buf arr1 arr2 rq1 rq2 Hb Hcap. cbn zeta.
  rewrite !(request_call_ref E HE) by exact Hb. rewrite !req_call_status, Hcap. split; [reflexivity|].
  intros n Hn. rewrite (req_call_complete e cf buf arr1 rq1 n) by (rewrite Hcap; exact Hn).
  rewrite (req_call_complete e cf buf arr2 rq2 n) by exact Hn. rewrite Hcap. reflexivity.
Qed.
Print Assumptions request_history_independent.

Theorem response_history_independent : forall E, env_ok E -> forall e cf buf arr1 arr2 rp1 rp2, bytes_ok buf ->
  resp_cap e arr1 rp1 = resp_cap e arr2 rp2 ->
  let r1 := response_call E e cf buf arr1 rp1 in
  let r2 := response_call E e cf buf arr2 rp2 in
  fst (fst r1) = fst (fst r2) /\
  (forall n, fst (fst r1) = Complete n -> snd (fst r1) = snd (fst r2)).
Proof.
  intros E HE e cf buf arr1 arr2 rp1 rp2 Hb Hcap. cbn zeta.
  rewrite !(response_call_ref E HE) by exact Hb. rewrite !resp_call_status, Hcap. split; [reflexivity|].
  intros n Hn. rewrite (resp_call_complete e cf buf arr1 rp1 n) by (rewrite Hcap; exact Hn).
  rewrite (resp_call_complete e cf buf arr2 rp2 n) by exact Hn. rewrite Hcap. reflexivity.
Qed.
Print Assumptions response_history_independent.

(* the documented loop: a probe after any history of calls equals the probe on a fresh value
   whose headers slice has the same length *)
Theorem reuse_equals_fresh : forall E, env_ok E -> forall (h : list call) (k : call) hdrs0, 
  Forall (fun c => bytes_ok (k_buf c)) h -> bytes_ok (k_buf k) ->
  let rq := request_history E h (request_new hdrs0) in
  let fresh := request_new (q_hdrs rq) in
  let r1 := request_call E (k_entry k) (k_cfg k) (k_buf k) (k_arr k) rq in
  let r2 := request_call E (k_entry k) (k_cfg k) (k_buf k) (k_arr k) fresh in
  fst (fst r1) = fst (fst r2) /\ (forall n, fst (fst r1) = Complete n -> snd (fst r1) = snd (fst r2)).
Proof.
  intros E HE h k hdrs0 _ Hb. cbn zeta. apply request_history_independent; [exact HE|exact Hb|].
  unfold req_cap. reflexivity.
Qed.
Print Assumptions reuse_equals_fresh.

(* ---- tie to the source: every statement above is about Model.v / Api.v; Proofs/Src*.v prove that the
   functions TRANSLATED from /repo/src/lib.rs on this run (Generated/Lib.v, LibApi.v) compute the same
   results, for every environment whose scanners only move forward (all concrete backends do), so each
   theorem of this file holds of the translated source by rewriting with `source_tie`.  Only the entry-point
   families this property speaks about are imported (Req, Resp) ---- *)
From HV Require Import Backends.
From HV.Proofs Require Import Mono BackendsFwd SrcReq SrcResp.
Theorem source_tie : forall E, env_fwd E -> request_source_is_model E /\ response_source_is_model E.
Proof. intros E HE. split; [apply src_tie_request; exact HE|apply src_tie_response; exact HE]. Qed.
Print Assumptions source_tie.
Theorem source_tie_backends : forall W be, request_source_is_model (env_of W be) /\ response_source_is_model (env_of W be).
Proof. intros W be. apply source_tie, backends_fwd. Qed.
Print Assumptions source_tie_backends.

(* ---- the scanners and class tables of THIS run.  The theorems above hold for every environment E with `env_ok E`
   (each scanner stops exactly at the first byte outside its class; the class predicates are the classes of the
   property).  Every concrete backend -- word-at-a-time with any word width, SSE4.2, AVX2, NEON, the runtime dispatch
   with any cached id -- built from the kernels, loop shells and CLASS TABLES translated from /repo on this run
   satisfies it (Proofs/BackendsOk.v over Generated/{Classes,Swar,Sse42,Avx2,Neon}.v; Thm/C12.v states the parts), so
   the theorems hold of the code as it is now; a table entry or a kernel that is not the class breaks this obligation
   of THIS property, not only C12's ---- *)
From HV Require Backends.
From HV.Proofs Require BackendsOk.
Theorem backends_of_this_run_ok : forall W, 0 < W -> forall be, env_ok (Backends.env_of W be).
Proof. exact BackendsOk.env_of_ok. Qed.
Print Assumptions backends_of_this_run_ok.
(* ... and the scanner loop shells and SWAR helpers translated on this run are the ones `Backends.env_of` is built from *)
From HV.Proofs Require TieLoops TieSwarFns.
Theorem loop_shells_of_this_run : TieLoops.loop_shells_tied.
Proof. exact TieLoops.loop_shells_tied_pf. Qed.
Print Assumptions loop_shells_of_this_run.

