(* Thm/C04.v -- zero-copy, dynamic half: every slice handed back is a sub-slice of the buffer
   (its bytes ARE the buffer's bytes at that offset), inside the consumed head on Complete,
   and the slices appear in input order without overlapping: method, path (or reason), then
   name, value of each header in line order.  `chain buf lo ss hi` says exactly that.
   PARTIAL (static half): Rust's borrow checker is not formalised here; the lifetime half of
   the property is checked by the compile-pass / compile-fail client corpus of the
   correspondence check (DESIGN.md section 7, C04). *)
From Coq Require Import List NArith Bool Lia.
From HV Require Import Cursor Scan Model Api Spec Oracle.
From HV.Proofs Require Import Base EnvOk Refine Entries ZeroCopy.
Import ListNotations.

(* requests, any outcome: the fields present and the stored headers form a chain inside the
   buffer -- inside buf[..n] when the status is Complete(n) *)
Theorem request_slices_in_order : forall cf cap buf,
  let r := ref_request cf cap buf in chain buf 0 (req_slices r) (lim buf (rq_status r)).
Proof. exact ref_request_chain. Qed.
Print Assumptions request_slices_in_order.

Theorem response_slices_in_order : forall cf cap buf,
  let r := ref_response cf cap buf in chain buf 0 (resp_slices r) (lim buf (rp_status r)).
Proof. exact ref_response_chain. Qed.
Print Assumptions response_slices_in_order.

Theorem header_slices_in_order : forall hc cap buf,
  let r := ref_headers hc cap 0 buf in chain buf 0 (hdr_slices (snd r)) (lim buf (fst r)).
Proof. exact ref_headers_chain. Qed.
Print Assumptions header_slices_in_order.

(* on a fresh value a field is whatever the call found *)
Lemma pick_fresh {A} (o : option A) : pick o None = o.
Proof. destruct o; reflexivity. Qed.

(* the model's fields are the reference's (Thm/C06, C07), so the same holds for every entry
   point of the model on a fresh value *)
Theorem model_request_slices : forall E, env_ok E -> forall cf buf arr, bytes_ok buf ->
  let '(st, rq, arr') := request_core E cf buf (request_new []) arr in
  let r := ref_request cf (length arr) buf in
  st = rq_status r /\ q_method rq = rs_method (rq_start r) /\ q_path rq = rs_path (rq_start r) /\
  arr' = slots_of (rq_headers r) arr /\
  chain buf 0 (req_slices r) (lim buf st).
Proof.
  intros E HE cf buf arr Hb. rewrite (request_core_ref E HE) by exact Hb.
  unfold req_result, request_new. cbn [q_method q_path q_version].
  rewrite !pick_fresh. repeat (split; [reflexivity|]). apply ref_request_chain.
Qed.
Print Assumptions model_request_slices.

(* what `chain` gives for one slice: zero-copy *)
Theorem chain_zero_copy : forall buf lo hi off bs rest,
  chain buf lo (Sub off bs :: rest) hi ->
  lo <= off /\ off + length bs <= hi /\ firstn (length bs) (skipn off buf) = bs.
Proof.
  intros buf lo hi off bs rest [mid [(H1 & H2 & H3) Hr]]. apply chain_le in Hr.
  repeat split; try lia. exact H3.
Qed.
Print Assumptions chain_zero_copy.

Example chain_example :
  let buf := [71;69;84;32;47;120;32;72;84;84;80;47;49;46;49;13;10;65;58;32;98;13;10;13;10]%N in
  req_slices (ref_request config_default 4 buf) = [Sub 0 [71;69;84]; Sub 4 [47;120]; Sub 17 [65]; Sub 20 [98]]%N.
Proof. vm_compute. reflexivity. Qed.

(* ---- static half: the public signatures that carry a lifetime are the reviewed ones ---- *)
From HV Require Import Lifetimes.
From HV.Generated Require Import Sigs.

Theorem public_lifetimes_as_reviewed : lifetimes_check = true.
Proof. vm_compute. reflexivity. Qed.
Print Assumptions public_lifetimes_as_reviewed.

Theorem every_lifetime_signature_is_reviewed : forall s, In s crate_sigs -> has_quote (snd s) = true ->
  exists e, In e lifetime_sigs /\ sig_eqb s e = true.
Proof.
  intros s Hs Hq. pose proof public_lifetimes_as_reviewed as H. unfold lifetimes_check in H.
  apply andb_prop in H as [H _]. rewrite forallb_forall in H. specialize (H s Hs). rewrite Hq in H. cbn [negb orb] in H.
  apply existsb_exists in H. exact H.
Qed.
Print Assumptions every_lifetime_signature_is_reviewed.

(* ---- tie to the source: every statement above is about Model.v / Api.v; Proofs/Src*.v prove that the
   functions TRANSLATED from /repo/src/lib.rs on this run (Generated/Lib.v, LibApi.v) compute the same
   results, for every environment whose scanners only move forward (all concrete backends do), so each
   theorem of this file holds of the translated source by rewriting with `source_tie`.  Only the entry-point
   families this property speaks about are imported (Req, Resp) ---- *)
From HV Require Import Backends.
From HV.Proofs Require Import Mono BackendsFwd SrcReq SrcResp.
Theorem source_tie : forall E, env_fwd E -> request_source_is_model E /\ response_source_is_model E.
Proof. intros E HE. split; [apply src_tie_request; exact HE|apply src_tie_response; exact HE]. Qed.
Print Assumptions source_tie.
Theorem source_tie_backends : forall W be, request_source_is_model (env_of W be) /\ response_source_is_model (env_of W be).
Proof. intros W be. apply source_tie, backends_fwd. Qed.
Print Assumptions source_tie_backends.

(* ---- iter.rs: the methods of `Bytes`, translated on this run into ADDRESS-level code in which every
   `*p`, `p.add(n)`, `p.sub(n)` and pointer subtraction is a checked operation (Generated/Iter.v, Ptr.v), are
   simulated by the Cursor.v operations the model and the translated lib.rs functions are built from: at every
   base address, for every buffer and every cursor state standing at a position of that buffer, a method whose
   Cursor.v counterpart returns does so too, with the corresponding value and state, WITHOUT faulting -- every
   byte it reads lies inside the caller's buffer, every slice it hands out is a sub-slice of it -- and it faults
   where the counterpart's `unsafe` precondition fails.  (The model never faults: theorems above.) ---- *)
From HV Require Import Ptr ImpLib.
From HV.Generated Require Import Iter.
From HV.Proofs Require Import TieIter.
Theorem bytes_methods_refine_cursor : forall B data c, repr data c ->
  i_peek (mkpmem B data) (pst_of B c) = PDone (hd_error (rest c)) (pst_of B c) /\
  match next_opt c with
  | Done o c' => i_next (mkpmem B data) (pst_of B c) = PDone o (pst_of B c') /\ repr data c'
  | _ => False end /\
  (forall n, match advance n c with
             | Done _ c' => i_advance n (mkpmem B data) (pst_of B c) = PDone tt (pst_of B c') /\ repr data c'
             | Fault _ => exists f, i_advance n (mkpmem B data) (pst_of B c) = PFault f
             | _ => False end) /\
  (forall n, match peek_ahead n c with
             | Done o c' => i_peek_ahead n (mkpmem B data) (pst_of B c) = PDone o (pst_of B c) /\ c' = c
             | Fault _ => exists f, i_peek_ahead n (mkpmem B data) (pst_of B c) = PFault f
             | _ => False end) /\
  (forall n, exists o, i_peek_n n (mkpmem B data) (pst_of B c) = PDone o (pst_of B c) /\
                       option_map (fun pl => sl_bytes (read_slice (mkpmem B data) pl)) o = take n (rest c)) /\
  match slice c with
  | Done s c' => exists pl, i_slice (mkpmem B data) (pst_of B c) = PDone pl (pst_of B c') /\
                            read_slice (mkpmem B data) pl = s /\ repr data c'
  | _ => False end /\
  (forall k, match slice_skip k c with
             | Done s c' => exists pl, i_slice_skip k (mkpmem B data) (pst_of B c) = PDone pl (pst_of B c') /\
                                       read_slice (mkpmem B data) pl = s /\ repr data c'
             | Fault _ => exists f, i_slice_skip k (mkpmem B data) (pst_of B c) = PFault f
             | _ => False end) /\
  i_len (mkpmem B data) (pst_of B c) = PDone (length (rest c)) (pst_of B c).
Proof.
  intros B data c H. repeat apply conj.
  - apply tie_iter_peek; exact H.
  - apply tie_iter_next; exact H.
  - intros n. apply tie_iter_advance; exact H.
  - intros n. apply tie_iter_peek_ahead; exact H.
  - intros n. apply tie_iter_peek_n; exact H.
  - apply tie_iter_slice; exact H.
  - intros k. apply tie_iter_slice_skip; exact H.
  - apply tie_iter_len.
Qed.
Print Assumptions bytes_methods_refine_cursor.
Theorem bytes_new_is_cur_new : forall B buf,
  i_new (B, length buf) (mkpmem B buf) (mkpst 0 0 0) = PDone tt (pst_of B (cur_new buf)) /\ repr buf (cur_new buf).
Proof. exact tie_iter_new. Qed.
Print Assumptions bytes_new_is_cur_new.

(* ---- zero-copy at ADDRESS level: the address-level program of the request entry point (Proofs/LiftTop.v:
   every slice is obtained by `from_raw_parts(p, n)` with [p, p+n) checked against the buffer, and denotes the
   bytes it reads there) hands out, on a fresh Request, exactly the slices of the reference parser -- which lie
   inside buf[..n], in order, without overlap, and contain the buffer's own bytes (`chain`, `chain_zero_copy`)
   -- at every base address B ---- *)
From HV.Proofs Require Import Lift LiftLib LiftTop.
Theorem address_level_request_slices : forall B W, 0 < W -> forall be cf buf arr, bytes_ok buf ->
  let '(st, rq, arr') := addr_request_core B W be cf buf (request_new []) arr in
  let r := ref_request cf (length arr) buf in
  st = rq_status r /\ q_method rq = rs_method (rq_start r) /\ q_path rq = rs_path (rq_start r) /\
  arr' = slots_of (rq_headers r) arr /\
  chain buf 0 (req_slices r) (lim buf st).
Proof.
  intros B W HW be cf buf arr Hb. rewrite addr_request_core_model by assumption.
  apply model_request_slices; [apply BackendsOk.env_of_ok; exact HW|exact Hb].
Qed.
Print Assumptions address_level_request_slices.

(* ---- the scanner loop shells and SWAR helpers translated from /repo/src/simd/*.rs on this run are the ones
   `Backends.env_of` is built from (Proofs/TieLoops.v, TieSwarFns.v): a rewritten loop shell breaks this obligation of
   this property too ---- *)
From HV.Proofs Require TieLoops TieSwarFns.
Theorem loop_shells_of_this_run : TieLoops.loop_shells_tied.
Proof. exact TieLoops.loop_shells_tied_pf. Qed.
Print Assumptions loop_shells_of_this_run.
